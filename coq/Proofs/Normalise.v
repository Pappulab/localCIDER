(* Proofs/Normalise.v — C13: acceptance is exactly "non-empty word over the 20 letters after
   upper-casing and deleting whitespace"; the stored word is that normalised word. *)
From Coq Require Import NArith List Bool Lia.
From LC Require Import Model.Normalise.
Import ListNotations.
Local Open Scope N_scope.

Lemma aa_of_code_code a : aa_of_code (code a) = Some a.
Proof. destruct a; reflexivity. Qed.

Lemma aa_of_code_some c a : aa_of_code c = Some a -> code a = c.
Proof. unfold aa_of_code. intros H. apply find_some in H. destruct H as [_ H]. now apply N.eqb_eq in H. Qed.

Lemma map_code_inj a : forall b, map code a = map code b -> a = b.
Proof.
  induction a as [|x a IH]; intros [|y b] H; try discriminate H; [reflexivity|]. cbn [map] in H. injection H as Hx H.
  f_equal; [|exact (IH b H)]. apply (f_equal aa_of_code) in Hx. rewrite !aa_of_code_code in Hx. now injection Hx.
Qed.

Section Norm.
  Variable upper : N -> list N.
  Variable isspace : N -> bool.

  Definition is_aa_b (c : N) : bool := match aa_of_code c with Some _ => true | None => false end.

  Lemma validate_some cs w : validate isspace cs = Some w ->
    map code w = filter is_aa_b cs /\ Forall (fun c => is_aa_b c = true \/ isspace c = true) cs.
  Proof.
    revert w. induction cs as [|c cs IH]; intros w H; cbn [validate] in H.
    - injection H as <-. split; [reflexivity | constructor].
    - cbn [filter]. unfold is_aa_b at 1. destruct (aa_of_code c) as [a|] eqn:E.
      + destruct (validate isspace cs) as [w'|]; [|discriminate]. injection H as <-.
        destruct (IH w' eq_refl) as [H1 H2]. split.
        * cbn [map]. rewrite H1, (aa_of_code_some c a E). reflexivity.
        * constructor; [left; unfold is_aa_b; now rewrite E | exact H2].
      + destruct (isspace c) eqn:S; [|discriminate].
        destruct (IH w H) as [H1 H2]. split; [exact H1|].
        constructor; [right; exact S | exact H2].
  Qed.

  Lemma validate_complete cs : Forall (fun c => is_aa_b c = true \/ isspace c = true) cs ->
    exists w, validate isspace cs = Some w.
  Proof.
    induction 1 as [|c cs Hc _ [w IH]]; [exists []; reflexivity|].
    cbn [validate]. unfold is_aa_b in Hc. destruct (aa_of_code c) as [a|].
    - rewrite IH. eexists. reflexivity.
    - destruct Hc as [Hc|Hc]; [discriminate|]. rewrite Hc, IH. eexists. reflexivity.
  Qed.

  Lemma validate_none cs : validate isspace cs = None ->
    exists c, In c cs /\ is_aa_b c = false /\ isspace c = false.
  Proof.
    induction cs as [|c cs IH]; cbn [validate]; [discriminate|]. intros H.
    destruct (aa_of_code c) as [a|] eqn:E.
    - destruct (validate isspace cs); [discriminate|]. destruct (IH eq_refl) as [c' [H1 H2]]. exists c'. split; [right; exact H1 | exact H2].
    - destruct (isspace c) eqn:S.
      + destruct (IH H) as [c' [H1 H2]]. exists c'. split; [right; exact H1 | exact H2].
      + exists c. split; [left; reflexivity|]. split; [unfold is_aa_b; now rewrite E | exact S].
  Qed.

  (* accepted exactly when the upper-cased text, whitespace deleted, is a non-empty word over the 20 letters;
     the object's sequence is then that word *)
  Theorem accept_iff s w :
    normalise upper isspace s = Some w <->
    (w <> [] /\ map code w = filter is_aa_b (flat_map upper s) /\
     Forall (fun c => is_aa_b c = true \/ isspace c = true) (flat_map upper s)).
  Proof.
    unfold normalise. destruct s as [|c0 s0].
    - split; [discriminate|]. intros [Hne [Hm _]]. cbn in Hm. destruct w; [congruence | discriminate].
    - set (up := flat_map upper (c0 :: s0)). split.
      + intros H. destruct (validate isspace up) as [[|a w']|] eqn:E; try discriminate.
        injection H as <-. destruct (validate_some up (a :: w') E) as [H1 H2].
        split; [discriminate | split; assumption].
      + intros [Hne [Hm Hall]]. destruct (validate_complete up Hall) as [w' Hw'].
        destruct (validate_some up w' Hw') as [H1 _].
        assert (w' = w) by (apply map_code_inj; congruence).
        subst w'. rewrite Hw'. destruct w; [congruence | reflexivity].
  Qed.

  Theorem reject_reasons s : normalise upper isspace s = None ->
    s = [] \/ (exists c, In c (flat_map upper s) /\ is_aa_b c = false /\ isspace c = false) \/
    filter is_aa_b (flat_map upper s) = [].
  Proof.
    unfold normalise. destruct s as [|c0 s0]; [left; reflexivity|]. intros H. right.
    destruct (validate isspace (flat_map upper (c0 :: s0))) as [[|a w]|] eqn:E; [|discriminate H|].
    - right. destruct (validate_some _ _ E) as [H1 _]. now rewrite <- H1.
    - left. apply validate_none. exact E.
  Qed.

  (* a normalised word is accepted unchanged (upper-case residue letters are fixed by upper, and are not spaces) *)
  Hypothesis upper_fixes_residues : forall a, upper (code a) = [code a].

  Lemma validate_word w : validate isspace (map code w) = Some w.
  Proof. induction w as [|a w IH]; [reflexivity|]. cbn [map validate]. now rewrite aa_of_code_code, IH. Qed.

  Lemma flat_map_word w : flat_map upper (map code w) = map code w.
  Proof. induction w as [|a w IH]; [reflexivity|]. cbn [map flat_map]. now rewrite upper_fixes_residues, IH. Qed.

  Theorem normalise_idempotent s w : normalise upper isspace s = Some w ->
    normalise upper isspace (map code w) = Some w.
  Proof.
    intros H. apply accept_iff in H. destruct H as [Hne _].
    unfold normalise. destruct w as [|a w]; [congruence|].
    change (map code (a :: w)) with (code a :: map code w) at 1.
    cbv iota. rewrite flat_map_word, validate_word. reflexivity.
  Qed.
End Norm.

Theorem ascii_upper_fixes_residues a : upper_ascii_N (code a) = [code a].
Proof. destruct a; reflexivity. Qed.

Theorem ascii_lowercase_accepted a : upper_ascii_N (code a + 32) = [code a].
Proof. destruct a; reflexivity. Qed.

Theorem ascii_non_letters_rejected c : c < 128 -> is_aa_b (match upper_ascii_N c with [u] => u | _ => c end) = false ->
  isspace_ascii_N c = false -> forall pre post,
  normalise upper_ascii_N isspace_ascii_N (pre ++ c :: post) = None.
Proof.
  intros Hc Haa Hsp pre post. destruct (normalise upper_ascii_N isspace_ascii_N (pre ++ c :: post)) as [w|] eqn:E; [|reflexivity].
  exfalso. apply accept_iff in E. destruct E as [_ [_ Hall]].
  rewrite flat_map_app in Hall. apply Forall_app in Hall. destruct Hall as [_ Hall].
  cbn [flat_map] in Hall. unfold upper_ascii_N at 1 in Hall. cbn [app] in Hall.
  inversion Hall as [|x l Hx _]; subst. unfold upper_ascii_N in Haa.
  assert (Hs : isspace_ascii_N (if (97 <=? c) && (c <=? 122) then c - 32 else c) = false).
  { destruct ((97 <=? c) && (c <=? 122)) eqn:B; [|exact Hsp].
    apply andb_prop in B. destruct B as [B1 B2]. apply N.leb_le in B1, B2. unfold isspace_ascii_N.
    (* 65 <= c - 32 is above both upper bounds *)
    destruct (N.leb_spec (c - 32) 13), (N.leb_spec (c - 32) 32); lia. }
  destruct Hx as [Hx|Hx]; congruence.
Qed.
