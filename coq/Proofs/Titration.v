(* Proofs/Titration.v — C09: Henderson–Hasselbalch charge over R (monotone in pH, bounded by the
   titratable fraction, FER = FCR + proline fraction), pH guard, and the isoelectric-point loop
   (returns only pH values whose charge is within the threshold, bounded number of evaluations,
   7.0 when nothing titrates). *)
From Coq Require Import Reals Lra Qabs List Lia.
From LC Require Import Core.QTools Model.Titration.
Import ListNotations.
Local Open Scope R_scope.

Definition p10 (y : R) : R := exp (y * ln 10).

Lemma ln10_pos : 0 < ln 10.
Proof. rewrite <- ln_1. apply ln_increasing; lra. Qed.

Lemma p10_pos y : 0 < p10 y.  Proof. apply exp_pos. Qed.

Lemma p10_mono y y' : y <= y' -> p10 y <= p10 y'.
Proof.
  intros H. unfold p10. destruct (Req_dec y y') as [->|Hne]; [lra|].
  left. apply exp_increasing. pose proof ln10_pos. nra.
Qed.

(* protonated fraction of a basic group / deprotonated fraction of an acidic group *)
Definition posf (pK x : R) : R := / (1 + p10 (x - pK)).
Definition negf (pK x : R) : R := / (1 + p10 (pK - x)).

(* both are the same function of the signed distance to the pKa *)
Lemma frac_range a : 0 < / (1 + p10 a) < 1.
Proof.
  pose proof (p10_pos a). split; [apply Rinv_0_lt_compat; lra|].
  rewrite <- Rinv_1 at 2. apply Rinv_lt_contravar; lra.
Qed.

Lemma frac_anti a b : a <= b -> / (1 + p10 b) <= / (1 + p10 a).
Proof.
  intros H. pose proof (p10_pos a). pose proof (p10_mono a b H). apply Rinv_le_contravar; lra.
Qed.

Lemma posf_range pK x : 0 < posf pK x < 1.  Proof. apply frac_range. Qed.
Lemma negf_range pK x : 0 < negf pK x < 1.  Proof. apply frac_range. Qed.

Lemma posf_decreasing pK x y : x <= y -> posf pK y <= posf pK x.
Proof. intros H. apply frac_anti. lra. Qed.
Lemma negf_increasing pK x y : x <= y -> negf pK x <= negf pK y.
Proof. intros H. apply frac_anti. lra. Qed.

(* one titratable kind: (count, pKa, positive?) *)
Definition term_net (t : Z * Q * bool) (x : R) : R :=
  let '(n, pK, pos) := t in if pos then IZR n * posf (Q2R pK) x else - (IZR n * negf (Q2R pK) x).
Definition term_tot (t : Z * Q * bool) (x : R) : R :=
  let '(n, pK, pos) := t in if pos then IZR n * posf (Q2R pK) x else IZR n * negf (Q2R pK) x.

Fixpoint sumT (f : Z * Q * bool -> R) (ts : list (Z * Q * bool)) : R :=
  match ts with [] => 0 | t :: ts' => f t + sumT f ts' end.

Definition net (ts : list (Z * Q * bool)) (x : R) : R := sumT (fun t => term_net t x) ts.
Definition tot (ts : list (Z * Q * bool)) (x : R) : R := sumT (fun t => term_tot t x) ts.
Definition ntitR (ts : list (Z * Q * bool)) : R := sumT (fun t => IZR (fst (fst t))) ts.

Definition counts_nonneg (ts : list (Z * Q * bool)) : Prop := Forall (fun t => (0 <= fst (fst t))%Z) ts.

Lemma sumT_le (P : Z * Q * bool -> Prop) f g ts :
  Forall P ts -> (forall t, P t -> f t <= g t) -> sumT f ts <= sumT g ts.
Proof.
  intros HP H. induction HP as [|t ts Ht _ IH]; cbn [sumT]; [lra|]. specialize (H t Ht). lra.
Qed.

Lemma sumT_plus f g ts : sumT (fun t => f t + g t) ts = sumT f ts + sumT g ts.
Proof. induction ts as [|t ts IH]; cbn [sumT]; lra. Qed.

Lemma sumT_scale c f ts : sumT (fun t => c * f t) ts = c * sumT f ts.
Proof. induction ts as [|t ts IH]; cbn [sumT]; lra. Qed.

Theorem net_decreasing ts x y : counts_nonneg ts -> x <= y -> net ts y <= net ts x.
Proof.
  intros Hc Hxy. apply (sumT_le _ _ _ _ Hc). intros [[n pK] pos] Hn%IZR_le. cbn [fst term_net] in *.
  pose proof (posf_decreasing (Q2R pK) x y Hxy). pose proof (negf_increasing (Q2R pK) x y Hxy).
  destruct pos; nra.
Qed.

Lemma term_bounds t x : (0 <= fst (fst t))%Z ->
  -1 * term_tot t x <= term_net t x <= term_tot t x /\ term_tot t x <= IZR (fst (fst t)).
Proof.
  destruct t as [[n pK] pos]. intros Hn%IZR_le. cbn [fst term_net term_tot] in *.
  pose proof (posf_range (Q2R pK) x). pose proof (negf_range (Q2R pK) x). destruct pos; nra.
Qed.

Theorem net_tot_bounds ts x : counts_nonneg ts -> Rabs (net ts x) <= tot ts x /\ tot ts x <= ntitR ts /\ 0 <= tot ts x.
Proof.
  intros Hc.
  assert (H1 : -1 * tot ts x <= net ts x)
    by (unfold tot; rewrite <- sumT_scale; apply (sumT_le _ _ _ _ Hc); intros; apply term_bounds; assumption).
  assert (H2 : net ts x <= tot ts x) by (apply (sumT_le _ _ _ _ Hc); intros; apply term_bounds; assumption).
  assert (H3 : tot ts x <= ntitR ts) by (apply (sumT_le _ _ _ _ Hc); intros; apply term_bounds; assumption).
  split; [apply Rabs_le; lra | split; lra].
Qed.

(* per-residue quantities as the getters return them *)
Definition NCPR_pH ts (N : R) x := net ts x / N.
Definition FCR_pH ts (N : R) x := tot ts x / N.
Definition FER_pH ts (nP N : R) x := (tot ts x + nP) / N.

Theorem NCPR_pH_decreasing ts N x y : counts_nonneg ts -> 0 < N -> x <= y -> NCPR_pH ts N y <= NCPR_pH ts N x.
Proof.
  intros Hc HN Hxy. unfold NCPR_pH, Rdiv. apply Rmult_le_compat_r; [left; apply Rinv_0_lt_compat; exact HN|].
  apply net_decreasing; assumption.
Qed.

Theorem charge_bounds ts N x : counts_nonneg ts -> 0 < N ->
  Rabs (NCPR_pH ts N x) <= FCR_pH ts N x /\ FCR_pH ts N x <= ntitR ts / N.
Proof.
  intros Hc HN. destruct (net_tot_bounds ts x Hc) as [H1 [H2 H3]].
  assert (Hi : 0 < / N) by (apply Rinv_0_lt_compat; exact HN).
  unfold NCPR_pH, FCR_pH, Rdiv. rewrite Rabs_mult, (Rabs_pos_eq (/ N)) by lra. split; apply Rmult_le_compat_r; lra.
Qed.

Theorem FER_adds_proline ts nP N x : 0 < N -> FER_pH ts nP N x = FCR_pH ts N x + nP / N.
Proof. intros HN. unfold FER_pH, FCR_pH. field. lra. Qed.

Theorem mean_net_charge_pH ts N x : Rabs (NCPR_pH ts N x) = Rabs (net ts x / N).
Proof. reflexivity. Qed.

Theorem pH_rejected x : (x < 0 \/ 14 < x)%Q -> pH_ok x = false.
Proof.
  intros [H|H]; unfold pH_ok.
  - destruct (Qle_bool_spec 0 x) as [E|_]; [destruct (Qlt_not_le _ _ H E) | reflexivity].
  - destruct (Qle_bool_spec x 14) as [E|_]; [destruct (Qlt_not_le _ _ H E) | apply andb_false_r].
Qed.

Local Open Scope Q_scope.

Lemma threshold_cases {T} (now A B : nat -> T) C c th :
  (forall n, now n = if negb (Qle_bool c th) then A n else if negb (Qle_bool (- th) c) then B n else C) ->
  (th < c /\ forall n, now n = A n) \/ (c < - th /\ forall n, now n = B n) \/ (Qabs c <= th /\ forall n, now n = C).
Proof.
  intros U. destruct (Qle_bool_spec c th) as [H1|H1]; [|left; split; [exact H1 | exact U]].
  right. destruct (Qle_bool_spec (- th) c) as [H2|H2]; [right | left; split; [exact H2 | exact U]].
  split; [apply Qabs_Qle_condition; split; assumption | exact U].
Qed.

(* One round of the loop, whatever the fuel, as Sequence.isoelectric_point runs it: breakcount is incremented and
   compared with 20 (bc = 19 here, the value before the increment); on 20, errorcount == 10 raises, otherwise
   errorcount + 1, breakcount = 0 and the interval grows by 1 on the side the previous charge points to; then the
   midpoint is evaluated and the loop moves up, moves down or returns it. *)
Lemma pi_step f lo hi bc ec prev vis :
  (bc = 19%nat /\ ec = 10%nat /\ forall n, pi_loop f (S n) lo hi bc ec prev vis = (None, rev vis)) \/
  exists lo1 hi1 bc' ec' mid,
    ((bc <> 19%nat /\ lo1 = lo /\ hi1 = hi /\ bc' = S bc /\ ec' = ec) \/
     (bc = 19%nat /\ ec <> 10%nat /\ bc' = 0%nat /\ ec' = S ec /\
      (prev <= 0 /\ lo1 = lo - 1 /\ hi1 = hi \/ 0 < prev /\ lo1 = lo /\ hi1 = hi + 1))) /\
    mid == (hi1 + lo1) * (1 # 2) /\
    ((2 # 100 < f mid /\
      forall n, pi_loop f (S n) lo hi bc ec prev vis = pi_loop f n mid hi1 bc' ec' (f mid) (mid :: vis)) \/
     (f mid < - (2 # 100) /\
      forall n, pi_loop f (S n) lo hi bc ec prev vis = pi_loop f n lo1 mid bc' ec' (f mid) (mid :: vis)) \/
     (Qabs (f mid) <= 2 # 100 /\
      forall n, pi_loop f (S n) lo hi bc ec prev vis = (Some mid, rev (mid :: vis)))).
Proof.
  (* the name keeps cbn from unfolding the left-hand side as well *)
  set (now := fun n => pi_loop f (S n) lo hi bc ec prev vis).
  assert (U : forall n, now n = pi_loop f (S n) lo hi bc ec prev vis) by reflexivity. cbn [pi_loop] in U.
  assert (Hm : forall a b, Qred ((1 # 2) * (a + b)) == (a + b) * (1 # 2)) by (intros; rewrite Qred_correct; ring).
  destruct (Nat.eqb_spec (S bc) 20) as [Hb|Hb]; cbn [andb] in U.
  - destruct (Nat.eqb_spec ec 10) as [He|He]; [left; repeat split; [lia | exact He | exact U]|].
    right. destruct (Qle_bool_spec prev 0) as [Hp|Hp]; cbn [negb] in U.
    + exists (lo - 1), hi, 0%nat, (S ec), (Qred ((1 # 2) * (hi + (lo - 1)))).
      split; [right; repeat split; [lia | exact He | left; repeat split; exact Hp]|].
      split; [apply Hm | apply threshold_cases with (now := now); exact U].
    + exists lo, (hi + 1), 0%nat, (S ec), (Qred ((1 # 2) * (hi + 1 + lo))).
      split; [right; repeat split; [lia | exact He | right; repeat split; exact Hp]|].
      split; [apply Hm | apply threshold_cases with (now := now); exact U].
  - right. exists lo, hi, (S bc), ec, (Qred ((1 # 2) * (hi + lo))).
    split; [left; repeat split; lia|].
    split; [apply Hm | apply threshold_cases with (now := now); exact U].
Qed.

Theorem pi_returns_within_threshold f fuel : forall lo hi bc ec prev vis x trace,
  pi_loop f fuel lo hi bc ec prev vis = (Some x, trace) -> Qabs (f x) <= 2 # 100.
Proof.
  induction fuel as [|fuel IH]; intros lo hi bc ec prev vis x trace H; [discriminate|].
  destruct (pi_step f lo hi bc ec prev vis) as [(_ & _ & E)|(lo1 & hi1 & bc' & ec' & mid & _ & _ & [[_ E]|[[_ E]|[Hm E]]])];
    rewrite E in H.
  - discriminate.
  - exact (IH _ _ _ _ _ _ _ _ H).
  - exact (IH _ _ _ _ _ _ _ _ H).
  - injection H as <- _. exact Hm.
Qed.

Theorem pi_evaluations_bounded f fuel : forall lo hi bc ec prev vis r trace,
  pi_loop f fuel lo hi bc ec prev vis = (r, trace) -> (List.length trace <= List.length vis + fuel)%nat.
Proof.
  induction fuel as [|fuel IH]; intros lo hi bc ec prev vis r trace H.
  - injection H as _ <-. rewrite rev_length. lia.
  - destruct (pi_step f lo hi bc ec prev vis) as [(_ & _ & E)|(lo1 & hi1 & bc' & ec' & mid & _ & _ & [[_ E]|[[_ E]|[_ E]]])];
      rewrite E in H.
    + injection H as _ <-. rewrite rev_length. lia.
    + apply IH in H. cbn [List.length] in H. lia.
    + apply IH in H. cbn [List.length] in H. lia.
    + injection H as _ <-. rewrite app_length, rev_length. cbn [List.length]. lia.
Qed.

(* The source loops `while True`; the model's fuel 221 = 20 * 11 + 1 is never the reason to stop: escapes fall on
   iterations 20, 40, ..., 200 (errorcount 1 .. 10), so iteration 220 at the latest finds breakcount == 20 with
   errorcount == 10 and raises, one step before the fuel is spent. *)
Theorem pi_escape_before_fuel f : forall fuel lo hi bc ec prev vis,
  (bc < 20)%nat -> (ec <= 10)%nat -> (20 * (10 - ec) + (20 - bc) <= fuel)%nat ->
  fst (pi_loop f fuel lo hi bc ec prev vis) = None ->
  exists fuel' lo' hi' prev' vis', fst (pi_loop f (S fuel') lo' hi' 19 10 prev' vis') = None.
Proof.
  induction fuel as [|fuel IH]; intros lo hi bc ec prev vis Hbc Hec Hf H; [lia|].
  destruct (pi_step f lo hi bc ec prev vis) as [(-> & -> & _)|(lo1 & hi1 & bc' & ec' & mid & Ha & _ & Hs)].
  - exists fuel, lo, hi, prev, vis. exact H.
  - assert (Hm : (bc' < 20 /\ ec' <= 10 /\ 20 * (10 - ec') + (20 - bc') <= fuel)%nat)
      by (destruct Ha as [(? & _ & _ & -> & ->)|(-> & ? & -> & -> & _)]; lia).
    destruct Hm as (Hbc' & Hec' & Hf'). destruct Hs as [[_ E]|[[_ E]|[_ E]]]; rewrite E in H.
    + exact (IH _ _ _ _ _ _ Hbc' Hec' Hf' H).
    + exact (IH _ _ _ _ _ _ Hbc' Hec' Hf' H).
    + discriminate.
Qed.

(* nothing titrates: the normalised charge is identically 0, the first midpoint 7.0 is returned *)
Theorem pi_no_titratable f : (forall x, f x == 0) -> fst (isoelectric f) = Some 7.
Proof.
  intros Hf. unfold isoelectric. change 221%nat with (S 220).
  (* with a numeral for the fuel, cbn would run all 221 rounds of both branches *)
  generalize 220%nat. intros n. cbn [pi_loop Nat.eqb andb].
  rewrite !(proj2 (Qle_bool_iff _ _)) by (rewrite Hf; discriminate). reflexivity.
Qed.

Theorem iso_evaluations_bounded f r trace : isoelectric f = (r, trace) -> (List.length trace <= 221)%nat.
Proof. apply pi_evaluations_bounded. Qed.

Theorem iso_failure_only_by_escape f : fst (isoelectric f) = None ->
  exists fuel' lo' hi' prev' vis', fst (pi_loop f (S fuel') lo' hi' 19 10 prev' vis') = None.
Proof. apply pi_escape_before_fuel; lia. Qed.
