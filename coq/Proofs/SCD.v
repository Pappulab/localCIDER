(* Proofs/SCD.v — symmetry and degenerate cases of the SCD coefficient data, and the code-shaped
   double loop computes them (C05, C07). *)
From Coq Require Import ZArith List Bool Lia.
From LC Require Import Core.Lists Model.SCD.
Import ListNotations.
Local Open Scope Z_scope.

Lemma fold_left_length {A B} (f : list A -> B -> list A) :
  (forall cs j, length (f cs j) = length cs) -> forall js cs, length (fold_left f js cs) = length cs.
Proof.
  intros Hf js. induction js as [|j js IH]; intros cs; cbn [fold_left]; [reflexivity|].
  now rewrite IH.
Qed.

Lemma map_nth_seq {A} (l : list A) d : map (fun i => nth i l d) (seq 0 (length l)) = l.
Proof.
  apply nth_ext with (d := d) (d' := d); rewrite map_length, seq_length; [reflexivity|].
  intros i Hi. now rewrite nth_map_seq.
Qed.

Lemma dot_nil_r a : dot a [] = 0.  Proof. destruct a; reflexivity. Qed.

Lemma dot_comm a : forall b, dot a b = dot b a.
Proof. induction a as [|x a IH]; intros [|y b]; cbn [dot]; try reflexivity. rewrite IH. ring. Qed.

Lemma dot_firstn a : forall b, dot a b = dot (firstn (length b) a) b.
Proof.
  induction a as [|x a IH]; intros [|y b]; cbn [dot length firstn]; try reflexivity.
  now rewrite <- IH.
Qed.

Lemma dot_app a : forall b a' b', length a = length b -> dot (a ++ a') (b ++ b') = dot a b + dot a' b'.
Proof.
  induction a as [|x a IH]; intros [|y b] a' b' H; cbn [length] in H; try discriminate; cbn [app dot]; [lia|].
  rewrite IH by lia. ring.
Qed.

Lemma dot_rev a : forall b, length a = length b -> dot (rev a) (rev b) = dot a b.
Proof.
  induction a as [|x a IH]; intros [|y b] H; cbn [length] in H; try discriminate; [reflexivity|].
  cbn [rev]. rewrite dot_app by (rewrite !rev_length; lia). rewrite IH by lia. cbn [dot]. ring.
Qed.

Lemma dot_opp a : forall b, dot (map Z.opp a) (map Z.opp b) = dot a b.
Proof. induction a as [|x a IH]; intros [|y b]; cbn [map dot]; try reflexivity. rewrite IH. ring. Qed.

Theorem coeff_rev l d : (d <= length l)%nat -> coeff (rev l) d = coeff l d.
Proof.
  intros Hd. unfold coeff.
  rewrite (dot_firstn (rev l)). rewrite skipn_length, rev_length.
  rewrite firstn_rev, skipn_rev.
  replace (length l - (length l - d))%nat with d by lia.
  rewrite dot_rev by (rewrite skipn_length, firstn_length; lia).
  rewrite dot_comm. rewrite (dot_firstn l (skipn d l)). now rewrite skipn_length.
Qed.

Theorem scd_rev l : scd_coeffs (rev l) = scd_coeffs l.
Proof.
  unfold scd_coeffs. rewrite rev_length. apply map_ext_in. intros d Hd. apply in_seq in Hd.
  apply coeff_rev. lia.
Qed.

Theorem scd_inv l : scd_coeffs (map Z.opp l) = scd_coeffs l.
Proof.
  unfold scd_coeffs, coeff. rewrite map_length. apply map_ext. intros d.
  rewrite skipn_map. apply dot_opp.
Qed.

(* fewer than two charged residues: every coefficient is 0, hence SCD = 0 *)
Definition nzb (x : Z) : bool := negb (x =? 0).

Lemma nzb_none a : cnt nzb a = 0 -> Forall (fun x => x = 0) a.
Proof.
  induction a as [|x a IH]; cbn [cnt]; intros H; [constructor|].
  pose proof (cnt_nonneg nzb a). unfold nzb at 1 in H.
  destruct (Z.eqb_spec x 0); cbn [negb] in H; [|lia]. constructor; [assumption | apply IH; lia].
Qed.

Lemma dot_zero_l a : Forall (fun x => x = 0) a -> forall b, dot a b = 0.
Proof. induction 1 as [|x a -> _ IH]; intros [|y b]; cbn [dot]; try reflexivity. rewrite IH. ring. Qed.

Lemma nth_zero a : Forall (fun x => x = 0) a -> forall i, nth i a 0 = 0.
Proof. induction 1 as [|x a Hx _ IH]; intros [|i]; cbn [nth]; auto. Qed.

Lemma dot_cons_skip x l d : dot (x :: l) (skipn d l) = x * nth d l 0 + dot l (skipn (S d) l).
Proof.
  assert (Hs : skipn (S d) l = tl (skipn d l)).
  { clear. revert d. induction l as [|y l IH]; intros [|d]; try reflexivity. cbn [skipn]. apply IH. }
  assert (Hn : nth d l 0 = hd 0 (skipn d l)).
  { clear Hs. revert d. induction l as [|y l IH]; intros [|d]; try reflexivity. cbn [nth skipn]. apply IH. }
  rewrite Hs, Hn. destruct (skipn d l) as [|y r]; cbn [dot hd tl]; [rewrite dot_nil_r; ring | reflexivity].
Qed.

Lemma coeff_cons x l d : coeff (x :: l) (S d) = x * nth d l 0 + coeff l (S d).
Proof. unfold coeff. change (skipn (S d) (x :: l)) with (skipn d l). apply dot_cons_skip. Qed.

Lemma coeff_beyond l d : (length l <= d)%nat -> coeff l d = 0.
Proof. intros H. unfold coeff. rewrite skipn_all2 by exact H. apply dot_nil_r. Qed.

Lemma coeff_full l : coeff l (length l) = 0.
Proof. apply coeff_beyond, le_n. Qed.

Theorem coeff_few_charges l d : cnt nzb l <= 1 -> coeff l (S d) = 0.
Proof.
  revert d. induction l as [|x l IH]; intros d H; [reflexivity|].
  rewrite coeff_cons. cbn [cnt] in H. pose proof (cnt_nonneg nzb l). unfold nzb at 1 in H.
  destruct (Z.eqb_spec x 0) as [->|_]; cbn [negb] in H.
  - rewrite IH by lia. ring.
  - assert (Hz : Forall (fun x => x = 0) l) by (apply nzb_none; lia).
    rewrite (nth_zero l Hz d). unfold coeff. rewrite (dot_zero_l l Hz). ring.
Qed.

Theorem scd_few_charges l : cnt nzb l <= 1 -> Forall (fun c => c = 0) (scd_coeffs l).
Proof.
  intros H. unfold scd_coeffs. apply Forall_forall. intros c Hc. apply in_map_iff in Hc.
  destruct Hc as [d [<- Hd]]. apply in_seq in Hd. destruct d as [|d]; [lia|]. apply coeff_few_charges. exact H.
Qed.

Lemma coeff_snoc l x d :
  coeff (l ++ [x]) (S d) = coeff l (S d) + (if (d <? length l)%nat then x * nth (length l - S d) l 0 else 0).
Proof.
  destruct (Nat.ltb_spec d (length l)) as [H|H].
  - rewrite <- (coeff_rev (l ++ [x])) by (rewrite app_length; cbn [length]; lia).
    rewrite rev_unit, coeff_cons, coeff_rev, rev_nth by lia. ring.
  - rewrite !coeff_beyond by (rewrite ?app_length; cbn [length]; lia). ring.
Qed.

Lemma add_at_length d v cs : length (add_at d v cs) = length cs.
Proof.
  unfold add_at. rewrite <- (firstn_skipn d cs) at 3. rewrite !app_length.
  now destruct (skipn d cs).
Qed.

Lemma add_at_nth d v : forall cs k, (d < length cs)%nat ->
  nth k (add_at d v cs) 0 = nth k cs 0 + (if (k =? d)%nat then v else 0).
Proof.
  induction d as [|d IH]; intros [|c cs] k H; cbn [length] in H; try lia.
  - destruct k; cbn; ring.
  - change (add_at (S d) v (c :: cs)) with (c :: add_at d v cs).
    destruct k as [|k]; cbn [nth Nat.eqb]; [ring | apply IH; lia].
Qed.

(* Rounds n = 1..c of the loop over n for one m (x stands for q (m-1)): round n has put
   x * q (n-1) into entry m-n-1, so the entries m-1-c .. m-2 have each received their one term. *)
Lemma inner_nth (q : nat -> Z) x m c : forall cs k, (c <= m - 1 <= length cs)%nat ->
  nth k (fold_left (fun cs n => add_at (m - n - 1) (x * q (n - 1)%nat) cs) (seq 1 c) cs) 0
  = nth k cs 0 + (if ((m - 1 - c <=? k) && (k <? m - 1))%nat then x * q (m - 2 - k)%nat else 0).
Proof.
  induction c as [|c IH]; intros cs k H.
  - cbn [seq fold_left]. destruct (Nat.leb_spec (m - 1 - 0) k), (Nat.ltb_spec k (m - 1)); cbn [andb]; lia.
  - rewrite seq_S, fold_left_app. cbn [fold_left].
    rewrite add_at_nth by (rewrite fold_left_length by auto using add_at_length; lia).
    rewrite IH by lia. cbn [Nat.add Nat.sub]. rewrite Nat.sub_0_r.
    destruct (Nat.leb_spec (m - 1 - c) k), (Nat.leb_spec (m - 1 - S c) k), (Nat.ltb_spec k (m - 1)),
      (Nat.eqb_spec k (m - S c - 1)) as [->|]; cbn [andb]; try lia.
    replace (m - 2 - (m - S c - 1))%nat with c by lia. ring.
Qed.

(* Rounds m = 2..c of the loop over m have accumulated the coefficients of the first c residues:
   by [coeff_snoc] one more residue contributes exactly what [inner_nth] says round m = c+1 adds. *)
Lemma outer_nth (q : nat -> Z) k : forall c cs, (c - 1 <= length cs)%nat ->
  nth k (fold_left (fun cs m =>
           fold_left (fun cs n => add_at (m - n - 1) (q (m - 1)%nat * q (n - 1)%nat) cs) (seq 1 (m - 1)) cs)
         (seq 2 (c - 1)) cs) 0
  = nth k cs 0 + coeff (map q (seq 0 c)) (S k).
Proof.
  induction c as [|[|c] IH]; intros cs H.
  1, 2: cbn [Nat.sub seq fold_left]; rewrite coeff_beyond by (cbn [seq map length]; lia); ring.
  cbn [Nat.sub] in *. rewrite Nat.sub_0_r in *.
  rewrite seq_S, fold_left_app. cbn [fold_left Nat.add].
  rewrite inner_nth
    by (rewrite fold_left_length by auto using fold_left_length, add_at_length; cbn [Nat.sub]; lia).
  rewrite IH by lia.
  rewrite (seq_S (S c)), map_app. cbn [map Nat.add]. rewrite coeff_snoc, map_length, seq_length.
  cbn [Nat.sub]. rewrite !Nat.sub_0_r, Nat.sub_diag. cbn [Nat.leb andb].
  destruct (Nat.ltb_spec k (S c)); [|ring].
  rewrite (nth_map_seq q 0 (S c)) by lia. cbn [Nat.add]. ring.
Qed.

Theorem m_scd_coeffs_spec l : m_scd_coeffs l = scd_coeffs l.
Proof.
  assert (Hlen : length (m_scd_coeffs l) = (length l - 1)%nat).
  { unfold m_scd_coeffs. rewrite fold_left_length by auto using fold_left_length, add_at_length.
    apply repeat_length. }
  apply nth_ext with (d := 0) (d' := 0).
  - rewrite Hlen. unfold scd_coeffs. now rewrite map_length, seq_length.
  - intros k Hk. rewrite Hlen in Hk. unfold scd_coeffs. rewrite nth_map_seq by exact Hk.
    unfold m_scd_coeffs. rewrite (outer_nth (fun i => nth i l 0)) by (rewrite repeat_length; lia).
    now rewrite nth_repeat, map_nth_seq.
Qed.

Fixpoint all_patterns (k : nat) : list (list Z) :=
  match k with
  | O => [[]]
  | S k' => flat_map (fun l => [1 :: l; -1 :: l; 0 :: l]) (all_patterns k')
  end.

(* the instance C07 quotes: every +1 / -1 / 0 pattern of length at most 7 *)
Lemma m_scd_coeffs_agree_upto_7 :
  forallb (fun k => forallb (fun l => lZ_eqb (m_scd_coeffs l) (scd_coeffs l)) (all_patterns k)) (seq 0 8) = true.
Proof.
  apply forallb_forall. intros k _. apply forallb_forall. intros l _.
  apply lZ_eqb_eq, m_scd_coeffs_spec.
Qed.
