(* Proofs/Parser.v — C14: files in any of the described layouts parse to exactly their residues;
   second headers, bad characters and misplaced '*' are rejected. *)
From Coq Require Import List Bool String Ascii Lia.
From LC Require Import Core.Residue Core.Lists Model.Parser.
Import ListNotations.

Definition okc (c : ascii) : bool :=
  match aa_of_char c with Some _ => true | None => Ascii.eqb c " " || is_digit c end.
Definition okstar (c : ascii) : bool := okc c || Ascii.eqb c "*".

(* tokens a sequence line contributes: residues and stars, in order *)
Fixpoint toks (cs : list ascii) : list (option aa) :=
  match cs with
  | [] => []
  | c :: r => match aa_of_char c with
              | Some a => Some a :: toks r
              | None => if Ascii.eqb c "*" then None :: toks r else toks r
              end
  end.

Lemma class_excludes (P : ascii -> bool) k c : P k = false -> P c = true -> Ascii.eqb c k = false.
Proof. intros Hk Hc. apply Ascii.eqb_neq. intros ->. congruence. Qed.

Lemma ws_not_tok c : is_ws c = true -> aa_of_char c = None /\ Ascii.eqb c "*" = false.
Proof.
  intros H. split; [|exact (class_excludes is_ws "*" c eq_refl H)].
  destruct (aa_of_char c) as [a|] eqn:E; [|reflexivity]. apply aa_of_char_some in E. subst c. destruct a; discriminate H.
Qed.

Lemma valid_seq_ok cs : forallb okstar cs = true -> valid_seq cs = Some (toks cs).
Proof.
  induction cs as [|c cs IH]; intros H; [reflexivity|].
  cbn [forallb] in H. apply andb_prop in H. destruct H as [Hc Hcs]. cbn [valid_seq toks]. rewrite (IH Hcs).
  unfold okstar, okc in Hc. destruct (aa_of_char c) as [a|]; [reflexivity|].
  destruct (Ascii.eqb c " ") eqn:E1.
  - apply Ascii.eqb_eq in E1. subst c. reflexivity.
  - destruct (Ascii.eqb c "*"); [reflexivity|]. cbn [orb] in Hc. rewrite orb_false_r in Hc. rewrite Hc. reflexivity.
Qed.

Lemma valid_seq_bad cs c : In c cs -> okstar c = false -> valid_seq cs = None.
Proof.
  induction cs as [|x cs IH]; intros Hin Hc; [destruct Hin|]. cbn [valid_seq].
  destruct Hin as [->|Hin].
  - unfold okstar, okc in Hc. destruct (aa_of_char c); [discriminate|].
    apply orb_false_elim in Hc. destruct Hc as [Hc1 Hc2]. apply orb_false_elim in Hc1. destruct Hc1 as [H1 H2].
    now rewrite H1, Hc2, H2.
  - rewrite (IH Hin Hc). destruct (aa_of_char x); [reflexivity|].
    destruct (Ascii.eqb x " "); [reflexivity|]. destruct (Ascii.eqb x "*"); [reflexivity|]. destruct (is_digit x); reflexivity.
Qed.

Lemma toks_app a b : toks (a ++ b) = toks a ++ toks b.
Proof.
  induction a as [|c a IH]; [reflexivity|]. cbn [app toks]. rewrite IH.
  destruct (aa_of_char c); [reflexivity|]. destruct (Ascii.eqb c "*"); reflexivity.
Qed.

Lemma toks_ws p : forallb is_ws p = true -> toks p = [].
Proof.
  induction p as [|c p IH]; intros H; [reflexivity|]. cbn [forallb] in H. apply andb_prop in H. destruct H as [Hc Hp].
  cbn [toks]. destruct (ws_not_tok c Hc) as [-> ->]. apply IH. exact Hp.
Qed.

Lemma toks_rev a : toks (rev a) = rev (toks a).
Proof.
  induction a as [|c a IH]; [reflexivity|]. cbn [rev]. rewrite toks_app, IH. cbn [toks].
  destruct (aa_of_char c); [reflexivity|]. destruct (Ascii.eqb c "*"); cbn [rev app]; now rewrite ?app_nil_r.
Qed.

Lemma dropws_split x : exists p, x = p ++ dropws x /\ forallb is_ws p = true.
Proof.
  induction x as [|c x [p [Hx Hp]]]; [exists []; split; reflexivity|]. cbn [dropws].
  destruct (is_ws c) eqn:E.
  - exists (c :: p). cbn [app forallb]. rewrite E, Hp. split; [now f_equal | reflexivity].
  - exists []. split; reflexivity.
Qed.

Lemma dropws_app x y : dropws (x ++ y) = match dropws x with [] => dropws y | d => d ++ y end.
Proof. induction x as [|c x IH]; [reflexivity|]. cbn [app dropws]. destruct (is_ws c); [exact IH | reflexivity]. Qed.

Lemma dropws_ws p : forallb is_ws p = true -> dropws p = [].
Proof.
  induction p as [|c p IH]; intros H; [reflexivity|]. cbn [forallb] in H. apply andb_prop in H. destruct H as [Hc Hp].
  cbn [dropws]. rewrite Hc. exact (IH Hp).
Qed.

Lemma dropws_allws p x : forallb is_ws p = true -> dropws (p ++ x) = dropws x.
Proof. intros H. now rewrite dropws_app, (dropws_ws p H). Qed.

Lemma strip_split l : exists p q, l = p ++ strip l ++ q /\ forallb is_ws p = true /\ forallb is_ws q = true.
Proof.
  destruct (dropws_split l) as [p [Hl Hp]]. destruct (dropws_split (rev (dropws l))) as [q [Hr Hq]].
  exists p, (rev q). unfold strip. split; [|split; [exact Hp | exact (forallb_rev _ _ Hq)]].
  rewrite Hl at 1. f_equal. rewrite <- rev_app_distr, <- Hr, rev_involutive. reflexivity.
Qed.

Lemma strip_allws l : forallb is_ws l = true -> strip l = [].
Proof. intros H. unfold strip. now rewrite (dropws_ws l H). Qed.

Lemma strip_pad p x q : forallb is_ws p = true -> forallb is_ws q = true -> strip (p ++ x ++ q) = strip x.
Proof.
  intros Hp Hq. unfold strip. rewrite (dropws_allws p _ Hp), dropws_app. destruct (dropws x) as [|c r].
  - now rewrite (dropws_ws q Hq).
  - now rewrite rev_app_distr, (dropws_allws (rev q) _ (forallb_rev _ _ Hq)).
Qed.

Lemma toks_strip l : toks (strip l) = toks l.
Proof.
  destruct (strip_split l) as [p [q [Hl [Hp Hq]]]]. rewrite Hl at 2.
  rewrite !toks_app, (toks_ws p Hp), (toks_ws q Hq), app_nil_r. reflexivity.
Qed.

Lemma strip_In l c : In c (strip l) -> In c l.
Proof. intros H. destruct (strip_split l) as [p [q [Hl _]]]. rewrite Hl. apply in_or_app. right. apply in_or_app. now left. Qed.

Lemma forallb_strip (P : ascii -> bool) l : forallb P l = true -> forallb P (strip l) = true.
Proof. rewrite !forallb_forall. intros H c Hc. exact (H c (strip_In l c Hc)). Qed.

Lemma dropws_keeps x c : In c x -> is_ws c = false -> In c (dropws x).
Proof.
  induction x as [|y x IH]; intros Hin Hc; [destruct Hin|]. cbn [dropws]. destruct (is_ws y) eqn:E.
  - destruct Hin as [->|Hin]; [congruence | apply IH; assumption].
  - exact Hin.
Qed.
Lemma strip_keeps l c : In c l -> is_ws c = false -> In c (strip l).
Proof.
  intros Hin Hc. unfold strip. apply in_rev. rewrite rev_involutive. apply dropws_keeps; [|exact Hc].
  apply -> in_rev. apply dropws_keeps; assumption.
Qed.

Lemma dropws_hd x c r : dropws x = c :: r -> is_ws c = false.
Proof.
  induction x as [|y x IH]; cbn [dropws]; [discriminate|]. destruct (is_ws y) eqn:E; [exact IH|].
  intros H. injection H as <- _. exact E.
Qed.

Lemma strip_header lead c text : forallb is_ws lead = true -> is_ws c = false ->
  exists t, strip (lead ++ c :: text) = c :: t.
Proof.
  intros Hl Hc. unfold strip. rewrite (dropws_allws lead _ Hl). cbn [dropws]. rewrite Hc. cbn [rev]. rewrite dropws_app.
  destruct (dropws (rev text)) as [|a d].
  - cbn [dropws]. rewrite Hc. exists []. reflexivity.
  - rewrite rev_app_distr. eexists. reflexivity.
Qed.

Inductive kind := KBlank | KHeader | KSeq.

Definition line_ok (k : kind) (l : list ascii) : Prop :=
  match k with
  | KBlank => forallb is_ws l = true
  | KHeader => exists lead text, l = lead ++ ">"%char :: text /\ forallb is_ws lead = true
  | KSeq => forallb okstar l = true
  end.

Definition line_toks (kl : kind * list ascii) : list (option aa) :=
  match fst kl with KSeq => toks (snd kl) | _ => [] end.

Definition nheaders (ls : list (kind * list ascii)) : nat :=
  List.length (filter (fun kl => match fst kl with KHeader => true | _ => false end) ls).

Definition is_header_b (l : list ascii) : bool :=
  match strip l with c :: _ => Ascii.eqb c ">" | [] => false end.

Lemma parse_lines_app ls1 ls2 : forall h acc,
  parse_lines (ls1 ++ ls2) h acc =
  match parse_lines ls1 h acc with Some acc' => parse_lines ls2 (h || existsb is_header_b ls1) acc' | None => None end.
Proof.
  induction ls1 as [|l ls1 IH]; intros h acc; cbn [app parse_lines existsb]; [now rewrite orb_false_r|].
  unfold is_header_b. destruct (strip l) as [|c sl]; [apply IH|].
  destruct (Ascii.eqb c ">"); [destruct h; [reflexivity | apply IH]|].
  destruct (valid_seq (c :: sl)); [apply IH | reflexivity].
Qed.

Lemma parse_lines_blank_end ls l h acc : strip l = [] -> parse_lines (ls ++ [l]) h acc = parse_lines ls h acc.
Proof. intros E. rewrite parse_lines_app. cbn [parse_lines]. rewrite E. now destruct (parse_lines ls h acc). Qed.

Lemma parse_lines_strip_ext ls ls' : map strip ls = map strip ls' -> forall h acc, parse_lines ls h acc = parse_lines ls' h acc.
Proof.
  revert ls'. induction ls as [|l ls IH]; intros [|l' ls'] E h acc; try discriminate E; [reflexivity|].
  cbn [map] in E. injection E as E1 E2. cbn [parse_lines]. rewrite <- E1.
  destruct (strip l) as [|c sl]; [apply IH; exact E2|].
  destruct (Ascii.eqb c ">"); [destruct h; [reflexivity | apply IH; exact E2]|].
  destruct (valid_seq (c :: sl)); [apply IH; exact E2 | reflexivity].
Qed.

Lemma parse_lines_spec ls : forall (h : bool) acc,
  Forall (fun kl => line_ok (fst kl) (snd kl)) ls ->
  (nheaders ls + (if h then 1 else 0) <= 1)%nat ->
  parse_lines (map snd ls) h acc = Some (acc ++ List.concat (map line_toks ls)).
Proof.
  induction ls as [|[k l] ls IH]; intros h acc Hok Hh; cbn [map parse_lines List.concat]; [now rewrite app_nil_r|].
  inversion Hok as [|? ? Hl Hrest]; subst. cbn [fst snd] in Hl. unfold nheaders in Hh. cbn [filter fst] in Hh.
  destruct k; cbn [line_ok] in Hl; unfold line_toks at 1; cbn [fst snd].
  - rewrite (strip_allws l Hl). cbn [app]. apply IH; [exact Hrest | exact Hh].
  - destruct Hl as [lead [text [-> Hlead]]]. destruct (strip_header lead ">" text Hlead eq_refl) as [t ->].
    change (Ascii.eqb ">" ">") with true. cbv iota. cbn [List.length] in Hh.
    destruct h; [lia|]. cbn [app]. apply IH; [exact Hrest | unfold nheaders; lia].
  - destruct (strip l) as [|c sl] eqn:Es.
    + rewrite <- (toks_strip l), Es. cbn [toks app]. apply IH; [exact Hrest | exact Hh].
    + pose proof (forallb_strip okstar l Hl) as Hs. rewrite Es in Hs.
      assert (Hc : okstar c = true) by (cbn [forallb] in Hs; apply andb_prop in Hs; tauto).
      rewrite (class_excludes okstar ">" c eq_refl Hc).
      rewrite (valid_seq_ok (c :: sl) Hs). rewrite <- Es, toks_strip, app_assoc. apply IH; [exact Hrest | exact Hh].
Qed.

Lemma notin_cons (x c : ascii) l : ~ In x (c :: l) -> Ascii.eqb c x = false /\ ~ In x l.
Proof. intros H. split; [apply Ascii.eqb_neq; intros -> | intros Hin]; apply H; [now left | now right]. Qed.

(* only \r is rewritten when no \r precedes *)
Lemma unl_app l rest : ~ In cr l -> unl false (l ++ rest) = l ++ unl false rest.
Proof.
  induction l as [|c l IH]; intros H; [reflexivity|]. cbn [app unl]. destruct (notin_cons _ _ _ H) as [-> H'].
  rewrite (IH H'). destruct (Ascii.eqb_spec c nl) as [->|]; reflexivity.
Qed.

Lemma unl_id cs : ~ In cr cs -> unl false cs = cs.
Proof. intros H. generalize (unl_app cs [] H). cbn [unl]. now rewrite !app_nil_r. Qed.

Lemma split_nl_nonempty cs : split_nl cs <> [].
Proof. induction cs as [|c cs IH]; cbn [split_nl]; [discriminate|]. destruct (Ascii.eqb c nl); [discriminate|]. destruct (split_nl cs); [congruence | discriminate]. Qed.

Lemma split_nl_line l rest : ~ In nl l -> split_nl (l ++ nl :: rest) = l :: split_nl rest.
Proof.
  induction l as [|c l IH]; intros H; cbn [app split_nl].
  - change (Ascii.eqb nl nl) with true. reflexivity.
  - destruct (notin_cons _ _ _ H) as [-> H']. now rewrite (IH H').
Qed.

Lemma split_nl_last l : ~ In nl l -> split_nl l = [l].
Proof.
  induction l as [|c l IH]; intros H; cbn [split_nl]; [reflexivity|].
  destruct (notin_cons _ _ _ H) as [-> H']. now rewrite (IH H').
Qed.

Definition plain (l : list ascii) : Prop := ~ In nl l /\ ~ In cr l.

(* the file: every line followed by \n, then a last line with or without its \n *)
Definition join (ls : list (list ascii)) (last : list ascii) : list ascii :=
  List.concat (map (fun l => l ++ [nl]) ls) ++ last.

(* line terminators: \n or \r\n, freely mixed *)
Definition term_ok (t : list ascii) : Prop := t = [nl] \/ t = [cr; nl].

Definition joinT (lts : list (list ascii * list ascii)) (last : list ascii) : list ascii :=
  List.concat (map (fun lt => fst lt ++ snd lt) lts) ++ last.

Lemma join_joinT ls last : join ls last = joinT (map (fun l => (l, [nl])) ls) last.
Proof. unfold join, joinT. now rewrite map_map. Qed.

Lemma unl_term t rest : term_ok t -> unl false (t ++ rest) = nl :: unl false rest.
Proof. intros [-> | ->]; reflexivity. Qed.

Lemma lines_joinT lts last : Forall (fun lt => plain (fst lt) /\ term_ok (snd lt)) lts -> plain last ->
  split_nl (unl false (joinT lts last)) = map fst lts ++ [last].
Proof.
  intros H [Hn Hc]. unfold joinT. induction H as [|[l t] lts [[Hln Hlc] Ht] _ IH]; cbn [map List.concat app fst snd].
  - rewrite (unl_id last Hc). exact (split_nl_last last Hn).
  - rewrite <- !app_assoc, (unl_app l _ Hlc), (unl_term t _ Ht), (split_nl_line l _ Hln), IH. reflexivity.
Qed.

Theorem parse_join kls : let ls := map snd kls in
  Forall (fun kl => line_ok (fst kl) (snd kl)) kls -> Forall plain ls -> (nheaders kls <= 1)%nat ->
  forall ls1 last, ls = ls1 ++ [last] ->
  parse (join ls1 last) = final_validation (List.concat (map line_toks kls)).
Proof.
  cbn zeta. intros Hok Hpl Hh ls1 last E.
  rewrite E in Hpl. apply Forall_app in Hpl. destruct Hpl as [Hp1 [Hp2 _]%Forall_cons_iff].
  unfold parse. rewrite join_joinT, lines_joinT, map_map;
    [|apply Forall_map, (Forall_impl _ (fun l H => conj H (or_introl eq_refl)) Hp1) | exact Hp2].
  cbn [fst]. rewrite map_id, <- E, (parse_lines_spec kls false []); [reflexivity | exact Hok | lia].
Qed.

Lemma unsome_some w : unsome (map Some w) = w.
Proof. induction w as [|a w IH]; [reflexivity|]. cbn [map unsome]. now rewrite IH. Qed.

Lemma nostar_some w : filter is_star (map Some w) = [].
Proof. induction w as [|a w IH]; [reflexivity | exact IH]. Qed.

Theorem final_no_star w : final_validation (map Some w) = Some w.
Proof. unfold final_validation. rewrite nostar_some. cbn. now rewrite unsome_some. Qed.

Theorem final_terminal_star w : final_validation (map Some w ++ [None]) = Some w.
Proof.
  unfold final_validation. rewrite filter_app, nostar_some. cbn [app filter is_star List.length Nat.eqb Nat.ltb Nat.leb].
  rewrite rev_app_distr. cbn [rev app]. rewrite rev_involutive. now rewrite unsome_some.
Qed.

Theorem final_two_stars acc : (2 <= List.length (filter is_star acc))%nat -> final_validation acc = None.
Proof.
  intros H. unfold final_validation. destruct (List.length (filter is_star acc)) as [|[|n]] eqn:E; try lia. reflexivity.
Qed.

Theorem final_nonterminal_star a x b : final_validation (a ++ None :: b ++ [Some x]) = None.
Proof.
  unfold final_validation.
  destruct (List.length (filter is_star (a ++ None :: b ++ [Some x]))) as [|[|n]] eqn:E.
  - rewrite filter_app, app_length in E. cbn [filter is_star List.length] in E. lia.
  - cbn [Nat.eqb Nat.ltb Nat.leb]. rewrite app_comm_cons, app_assoc, rev_app_distr. reflexivity.
  - reflexivity.
Qed.

Lemma headers_reject ls : forall (h : bool) acc,
  (2 <= List.length (filter is_header_b ls) + (if h then 1 else 0))%nat -> parse_lines ls h acc = None.
Proof.
  induction ls as [|l ls IH]; intros h acc H; [destruct h; cbn in H; lia|].
  cbn [filter] in H. cbn [parse_lines]. destruct (is_header_b l) eqn:Hb; unfold is_header_b in Hb.
  - destruct (strip l) as [|c sl]; [discriminate Hb|]. rewrite Hb.
    destruct h; [reflexivity|]. apply IH. cbn [List.length] in H. lia.
  - destruct (strip l) as [|c sl]; [apply IH; exact H|]. rewrite Hb.
    destruct (valid_seq (c :: sl)); [apply IH; exact H | reflexivity].
Qed.

Lemma bad_char_rejects ls l c : In l ls -> is_header_b l = false -> In c l -> okstar c = false -> is_ws c = false ->
  forall h acc, parse_lines ls h acc = None.
Proof.
  intros Hin Hh Hc Hbad Hws h acc. destruct (in_split l ls Hin) as [ls1 [ls2 ->]]. rewrite parse_lines_app.
  destruct (parse_lines ls1 h acc) as [acc'|]; [|reflexivity]. cbn [parse_lines].
  pose proof (strip_keeps l c Hc Hws) as Hk. unfold is_header_b in Hh.
  destruct (strip l) as [|c0 sl]; [destruct Hk|]. now rewrite Hh, (valid_seq_bad (c0 :: sl) c Hk Hbad).
Qed.

Theorem second_header_rejected text :
  (2 <= List.length (filter is_header_b (split_nl (unl false text))))%nat -> parse text = None.
Proof. intros H. unfold parse. rewrite headers_reject; [reflexivity | lia]. Qed.

Theorem bad_character_rejected text l c : In l (split_nl (unl false text)) -> is_header_b l = false ->
  In c l -> okstar c = false -> is_ws c = false -> parse text = None.
Proof. intros H1 H2 H3 H4 H5. unfold parse. now rewrite (bad_char_rejects _ l c H1 H2 H3 H4 H5). Qed.

Theorem layout_parses kls ls1 last w :
  Forall (fun kl => line_ok (fst kl) (snd kl)) kls -> Forall plain (map snd kls) -> (nheaders kls <= 1)%nat ->
  map snd kls = ls1 ++ [last] ->
  (List.concat (map line_toks kls) = map Some w \/ List.concat (map line_toks kls) = map Some w ++ [None]) ->
  parse (join ls1 last) = Some w.
Proof.
  intros Hok Hpl Hh E Ht. rewrite (parse_join kls Hok Hpl Hh ls1 last E).
  destruct Ht as [-> | ->]; [apply final_no_star | apply final_terminal_star].
Qed.

(* residues of a star-free sequence line *)
Fixpoint res_of (cs : list ascii) : list aa :=
  match cs with [] => [] | c :: r => match aa_of_char c with Some a => a :: res_of r | None => res_of r end end.

Lemma toks_okc cs : forallb okc cs = true -> toks cs = map Some (res_of cs).
Proof.
  induction cs as [|c cs IH]; intros H; [reflexivity|]. cbn [forallb] in H. apply andb_prop in H. destruct H as [Hc Hcs].
  cbn [toks res_of]. unfold okc in Hc. destruct (aa_of_char c) as [a|]; [cbn [map]; now rewrite IH|].
  rewrite (class_excludes (fun c => Ascii.eqb c " " || is_digit c) "*" c eq_refl Hc). apply IH. exact Hcs.
Qed.

Lemma res_of_word w : res_of (map aa_char w) = w.
Proof. induction w as [|a w IH]; [reflexivity|]. cbn [map res_of]. now rewrite aa_of_char_char, IH. Qed.

(* a padded line: whitespace (tabs, form feeds, blanks ...) around a body of the plain layout *)
Record pline := { pl_kind : kind; pl_pre : list ascii; pl_body : list ascii; pl_post : list ascii; pl_term : list ascii }.
Definition pl_text (x : pline) : list ascii := pl_pre x ++ pl_body x ++ pl_post x.
Definition pline_ok (x : pline) : Prop :=
  line_ok (pl_kind x) (pl_body x) /\ forallb is_ws (pl_pre x) = true /\ forallb is_ws (pl_post x) = true /\
  plain (pl_text x) /\ term_ok (pl_term x).

Theorem layout_parses_padded (pls : list pline) (lastl : pline) w :
  Forall pline_ok pls -> pline_ok lastl ->
  let kls := map (fun x => (pl_kind x, pl_body x)) (pls ++ [lastl]) in
  (nheaders kls <= 1)%nat ->
  (List.concat (map line_toks kls) = map Some w \/ List.concat (map line_toks kls) = map Some w ++ [None]) ->
  forall final_newline : bool,
  parse (joinT (map (fun x => (pl_text x, pl_term x)) pls ++ (if final_newline then [(pl_text lastl, pl_term lastl)] else []))
               (if final_newline then [] else pl_text lastl)) = Some w.
Proof.
  intros Hok Hlast kls Hh Ht fin.
  set (f := fun x => (pl_text x, pl_term x)). change (pl_text lastl, pl_term lastl) with (f lastl).
  assert (Hall : Forall pline_ok (pls ++ [lastl])).
  { apply Forall_app. split; [exact Hok | constructor; [exact Hlast | constructor]]. }
  assert (Hpt : Forall (fun lt => plain (fst lt) /\ term_ok (snd lt)) (map f (pls ++ [lastl]))).
  { apply Forall_map, (Forall_impl _ (fun x (H : pline_ok x) => proj2 (proj2 (proj2 H))) Hall). }
  assert (Hlines : parse_lines (map fst (map f (pls ++ [lastl]))) false [] = Some (List.concat (map line_toks kls))).
  { rewrite (parse_lines_strip_ext _ (map snd kls)).
    - apply (parse_lines_spec kls false []); [|lia]. apply Forall_map, (Forall_impl _ (fun x (H : pline_ok x) => proj1 H) Hall).
    - unfold kls. rewrite !map_map. apply map_ext_Forall. refine (Forall_impl _ _ Hall).
      intros x (_ & H1 & H2 & _). apply strip_pad; assumption. }
  rewrite map_app in Hpt. cbn [map] in Hpt. rewrite !map_app in Hlines.
  assert (E : parse_lines (split_nl (unl false (joinT (map f pls ++ (if fin then [f lastl] else []))
                                                     (if fin then [] else pl_text lastl)))) false []
              = Some (List.concat (map line_toks kls))).
  { destruct fin.
    - (* the last line carries its terminator: one more (empty) line after it *)
      rewrite (lines_joinT _ [] Hpt) by (split; intros []).
      rewrite map_app, (parse_lines_blank_end _ [] _ _ eq_refl). exact Hlines.
    - apply Forall_app in Hpt. destruct Hpt as [Hpt [[Hl _] _]%Forall_cons_iff].
      rewrite app_nil_r, (lines_joinT _ (pl_text lastl) Hpt Hl). exact Hlines. }
  unfold parse. rewrite E. destruct Ht as [-> | ->]; [apply final_no_star | apply final_terminal_star].
Qed.

(* the hypotheses are satisfiable: a Windows file with a header, tab-padded numbered lines, a blank line and a final '*' *)
Definition ex_lines : list pline :=
  [ {| pl_kind := KHeader; pl_pre := []; pl_body := list_ascii_of_string ">sp|X test"; pl_post := [" "%char]; pl_term := [cr; nl] |};
    {| pl_kind := KSeq; pl_pre := ["009"%char; " "%char]; pl_body := list_ascii_of_string "1 EKEKGSGSAA TY"; pl_post := ["009"%char]; pl_term := [cr; nl] |};
    {| pl_kind := KBlank; pl_pre := []; pl_body := []; pl_post := []; pl_term := [nl] |} ].
Definition ex_last : pline :=
  {| pl_kind := KSeq; pl_pre := ["012"%char]; pl_body := list_ascii_of_string "13 PP*"; pl_post := []; pl_term := [cr; nl] |}.

Lemma ex_ok : Forall pline_ok ex_lines /\ pline_ok ex_last.
Proof.
  assert (P : forall l, forallb (fun c => negb (Ascii.eqb c nl) && negb (Ascii.eqb c cr)) l = true -> plain l).
  { intros l H. rewrite forallb_forall in H. split; intros Hin; specialize (H _ Hin); vm_compute in H; discriminate H. }
  assert (Q : forall x, In x (ex_last :: ex_lines) -> pline_ok x).
  { intros x Hx. cbn [In ex_lines] in Hx.
    destruct Hx as [<-|[<-|[<-|[<-|[]]]]]; unfold pline_ok;
      refine (conj _ (conj _ (conj _ (conj _ _)))); try reflexivity; try (apply P; reflexivity);
      try (right; reflexivity); try (left; reflexivity).
    exists [], (list_ascii_of_string "sp|X test"). split; reflexivity. }
  split; [apply Forall_forall; intros x Hx; apply Q; right; exact Hx | apply Q; left; reflexivity].
Qed.

Example layout_padded_example :
  parse (list_ascii_of_string ">sp|X test " ++ [cr; nl; "009"%char] ++ list_ascii_of_string " 1 EKEKGSGSAA TY" ++
         ["009"%char; cr; nl; nl; "012"%char] ++ list_ascii_of_string "13 PP*" ++ [cr; nl])
  = Some [Glu; Lys; Glu; Lys; Gly; Ser; Gly; Ser; Ala; Ala; Thr; Tyr; Pro; Pro].
Proof.
  destruct ex_ok as [H1 H2].
  exact (layout_parses_padded ex_lines ex_last [Glu; Lys; Glu; Lys; Gly; Ser; Gly; Ser; Ala; Ala; Thr; Tyr; Pro; Pro] H1 H2
           ltac:(vm_compute; lia) ltac:(right; vm_compute; reflexivity) true).
Qed.
