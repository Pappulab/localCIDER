(* Proofs/Delta.v — the code-shaped model of delta equals the specification; basic facts. *)
From Coq Require Import QArith List Lia.
From LC Require Import Core.Lists Core.QTools Spec.Delta Model.Delta.
Local Open Scope Z_scope.

Lemma npos_nonneg l : 0 <= npos l.  Proof. apply cnt_nonneg. Qed.
Lemma nneg_nonneg l : 0 <= nneg l.  Proof. apply cnt_nonneg. Qed.

Lemma pos_neg_le_len l : npos l + nneg l <= len l.
Proof.
  unfold npos, nneg, len. induction l as [|x l IH]; [simpl; lia|].
  cbn [cnt length]. unfold isposb, isnegb in *.
  destruct (0 <? x) eqn:E1, (x <? 0) eqn:E2; lia.
Qed.

Lemma nneut_nonneg l : 0 <= nneut l.
Proof. unfold nneut. pose proof (pos_neg_le_len l). lia. Qed.
Lemma nneut_cnt l : cnt (fun z => z =? 0) l = len l - npos l - nneg l.
Proof.
  unfold len, npos, nneg. induction l as [|z l IH]; [reflexivity|]. cbn [cnt List.length]. rewrite IH. unfold isposb, isnegb.
  destruct (Z.eqb_spec z 0), (Z.ltb_spec 0 z), (Z.ltb_spec z 0); lia.
Qed.

Lemma sq_mul (a b : Q) : (sqQ a == a * a)%Q.  Proof. reflexivity. Qed.

Global Instance sqQ_proper : Proper (Qeq ==> Qeq) sqQ.
Proof. intros a b H. unfold sqQ. rewrite H. reflexivity. Qed.

(* the three-fraction form computed by the code equals the closed form *)
Lemma ratio_form (d s N : Z) : 0 < N -> 0 < s ->
  ((d # Z.to_pos N) * (d # Z.to_pos N) / (s # Z.to_pos N) == (d * d) # Z.to_pos (N * s))%Q.
Proof.
  intros HN Hs. rewrite !Qmake_div, !inject_Z_mult by lia.
  field. split; apply inject_Z_nz; lia.
Qed.

Lemma m_bsigma_sigma_c w b : npos b + nneg b <= w -> (m_bsigma w b == sigma_c (npos b) (nneg b) w)%Q.
Proof.
  intros Hw. unfold m_bsigma, sigma_c. destruct (npos b + nneg b =? 0) eqn:E; [reflexivity|].
  apply Z.eqb_neq in E. pose proof (npos_nonneg b). pose proof (nneg_nonneg b).
  rewrite Qred_correct. apply ratio_form; lia.
Qed.

Lemma m_bsigma_spec w b : length b = w -> (m_bsigma (Z.of_nat w) b == sigma b)%Q.
Proof. intros <-. apply m_bsigma_sigma_c, pos_neg_le_len. Qed.

(* m_sigma is m_bsigma with the whole length as denominator, behind an equivalent test *)
Lemma m_sigma_spec l : (m_sigma l == sigma l)%Q.
Proof.
  rewrite <- (m_bsigma_spec _ l eq_refl). unfold m_sigma, m_bsigma, nneut. fold (len l).
  pose proof (npos_nonneg l). pose proof (nneg_nonneg l).
  destruct (Z.eqb_spec (len l - npos l - nneg l) (len l)), (Z.eqb_spec (npos l + nneg l) 0); try lia; reflexivity.
Qed.

Lemma m_deltaForm_spec w l : (m_deltaForm w l == deltaForm w l)%Q.
Proof.
  unfold m_deltaForm, deltaForm.
  rewrite (fold_sum (fun i => sqQ (m_sigma l - m_bsigma (Z.of_nat w) (firstn w (skipn i l))) /
                              inject_Z (len l - Z.of_nat w + 1))%Q).
  rewrite Qplus_0_l, sumQ_map_div.
  unfold len at 3. rewrite blobs_length.
  assert (Hn : Z.to_nat (len l - Z.of_nat w + 1) = (length l + 1 - w)%nat) by (unfold len; lia).
  rewrite Hn. unfold blobs. rewrite map_map.
  destruct (le_lt_dec w (length l)) as [Hle|Hlt].
  - replace (len l - Z.of_nat w + 1) with (Z.of_nat (length l + 1 - w)) by (unfold len; lia).
    apply Qmult_comp; [|reflexivity].
    apply sumQ_map_ext. intros i Hi. apply in_seq in Hi.
    rewrite m_sigma_spec. fold (blob w i l).
    rewrite m_bsigma_spec; [reflexivity|]. apply blob_length. lia.
  - replace (length l + 1 - w)%nat with 0%nat by lia. simpl. unfold Qdiv. ring.
Qed.

Theorem m_delta_spec l : (m_delta l == delta l)%Q.
Proof.
  unfold m_delta, delta. rewrite Qred_correct.
  rewrite !m_deltaForm_spec. reflexivity.
Qed.

Lemma deltaForm_too_long w l : (length l < w)%nat -> (deltaForm w l == 0)%Q.
Proof.
  intros H. unfold deltaForm. rewrite blobs_too_long by exact H. simpl. unfold Qdiv. ring.
Qed.

Theorem delta_short l : (length l < 5)%nat -> (delta l == 0)%Q.
Proof.
  intros H. unfold delta. rewrite !deltaForm_too_long by lia. unfold Qdiv. ring.
Qed.

Lemma deltaForm_nonneg w l : (0 <= deltaForm w l)%Q.
Proof.
  unfold deltaForm. unfold Qdiv. apply Qmult_le_0_compat.
  - apply sumQ_nonneg. intros x Hx. apply in_map_iff in Hx. destruct Hx as [b [<- _]]. apply sqQ_nonneg.
  - apply Qinv_le_0_compat. unfold len. unfold Qle. simpl. lia.
Qed.

Theorem delta_nonneg l : (0 <= delta l)%Q.
Proof.
  unfold delta. unfold Qdiv. apply Qmult_le_0_compat; [|discriminate].
  setoid_replace 0%Q with (0 + 0)%Q by ring.
  apply Qplus_le_compat; apply deltaForm_nonneg.
Qed.

(* delta is positive as soon as the asymmetry of one 5-blob differs from the sequence's *)
Lemma delta_pos l b : In b (blobs 5 l) -> ~ (sigma l == sigma b)%Q -> (0 < delta l)%Q.
Proof.
  intros Hb Hne. unfold delta. apply Qlt_shift_div_l; [reflexivity|]. rewrite Qmult_0_l.
  rewrite <- (Qplus_0_r 0). apply Qplus_lt_le_compat; [|apply deltaForm_nonneg].
  unfold deltaForm. apply Qlt_shift_div_l.
  - unfold len, Qlt. cbn [inject_Z Qnum Qden]. destruct (blobs 5 l); [destruct Hb | cbn [length]; lia].
  - rewrite Qmult_0_l. apply sumQ_pos with (y := sqQ (sigma l - sigma b)).
    + intros x Hx. apply in_map_iff in Hx as [c [<- _]]. apply sqQ_nonneg.
    + exact (in_map (fun c => sqQ (sigma l - sigma c)) _ _ Hb).
    + apply sqQ_pos. intros E. apply Hne. rewrite <- (Qplus_0_l (sigma b)), <- E. ring.
Qed.

Lemma deltaForm_const w l : (forall b, In b (blobs w l) -> (sigma b == sigma l)%Q) -> (deltaForm w l == 0)%Q.
Proof.
  intros H. unfold deltaForm. rewrite sumQ_map_zero; [unfold Qdiv; ring|].
  intros b Hb. rewrite (H b Hb). unfold sqQ. ring.
Qed.

Lemma sigma_uncharged l : npos l + nneg l = 0 -> sigma l = 0%Q.
Proof. intros H. unfold sigma, sigma_c. rewrite H. reflexivity. Qed.

Theorem delta_uncharged l : npos l + nneg l = 0 -> (delta l == 0)%Q.
Proof.
  intros H.
  assert (Hf : forall w, (deltaForm w l == 0)%Q).
  { intros w. apply deltaForm_const. intros b Hb. apply blobs_In in Hb as [i [_ ->]].
    rewrite (sigma_uncharged l H), sigma_uncharged; [reflexivity|]. unfold npos, nneg in *.
    pose proof (cnt_blob_le isposb w i l). pose proof (cnt_blob_le isnegb w i l).
    pose proof (cnt_nonneg isposb (blob w i l)). pose proof (cnt_nonneg isnegb (blob w i l)). lia. }
  unfold delta. rewrite !Hf. reflexivity.
Qed.

Lemma natcomp_counts l p n z : natcomp l = (p, n, z) ->
  npos l = Z.of_nat p /\ nneg l = Z.of_nat n /\ nneut l = Z.of_nat z.
Proof.
  unfold natcomp. intros [= <- <- <-].
  pose proof (npos_nonneg l). pose proof (nneg_nonneg l). pose proof (nneut_nonneg l). lia.
Qed.
