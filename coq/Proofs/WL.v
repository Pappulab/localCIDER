(* Proofs/WL.v — C18: bookkeeping invariants of the Wang–Landau run, for EVERY list of events that meet
   the side conditions (whichever way rounding broke ties in the two float decisions); then the histogram geometry: bin centres are
   midpoints, an aligned request selects exactly the bins whose centre it contains, and __init__'s arithmetic
   (Model.WL.geom_of) recovers the partition and the first relevant bin from such a request. *)
From Coq Require Import Qabs Qround List Lia.
From LC Require Import Core.Residue Core.Lists Core.QTools Model.DeltaCheck Model.WL.
Import ListNotations.

(* run with the side conditions checked at every step *)
Fixpoint wl_run (c : wlcfg) (s : wlst) (es : list event) : option wlst :=
  match es with
  | [] => Some s
  | e :: es' => if side_ok c s e then wl_run c (wl_step c s e) es' else None
  end.

Lemma upd_length {X} (l : list X) i f : List.length (upd l i f) = List.length l.
Proof. revert i. induction l as [|x l IH]; intros [|i]; cbn [upd List.length]; try reflexivity. now rewrite IH. Qed.

Lemma nth_upd_same {X} (l : list X) i f d : (i < List.length l)%nat -> nth i (upd l i f) d = f (nth i l d).
Proof. revert i. induction l as [|x l IH]; intros [|i] H; cbn [upd nth List.length] in *; try lia; [reflexivity | apply IH; lia]. Qed.

Lemma nth_upd_other {X} (l : list X) i j f d : i <> j -> nth i (upd l j f) d = nth i l d.
Proof.
  revert i j. induction l as [|x l IH]; intros [|i] [|j] H; cbn [upd nth]; try reflexivity; try congruence.
  apply IH. congruence.
Qed.

Lemma upd_split {X} (f : X -> X) (d : X) : forall (l : list X) i, (i < List.length l)%nat ->
  upd l i f = firstn i l ++ f (nth i l d) :: skipn (S i) l.
Proof.
  induction l as [|x l IH]; intros i H; [cbn in H; lia|]. destruct i as [|i]; [reflexivity|].
  cbn [upd firstn nth skipn app]. f_equal. apply IH. cbn [List.length] in H. lia.
Qed.

Lemma upd_nonneg l i : (forall x, In x l -> (0 <= x)%Z) -> forall x, In x (upd l i (fun x => (x + 1)%Z)) -> (0 <= x)%Z.
Proof.
  revert i. induction l as [|y l IH]; intros i H x Hx; [destruct i; destruct Hx|].
  destruct i as [|i]; cbn [upd] in Hx; destruct Hx as [<-|Hx].
  - specialize (H y (or_introl eq_refl)). lia.
  - apply H. now right.
  - apply H. now left.
  - apply (IH i); [|exact Hx]. intros z Hz. apply H. now right.
Qed.

Lemma sumZ_nonneg l : (forall x, In x l -> (0 <= x)%Z) -> (0 <= sumZ l)%Z.
Proof.
  induction l as [|x l IH]; intros H; [reflexivity|]. cbn [sumZ fold_right]. fold (sumZ l).
  specialize (H x (or_introl eq_refl)) as Hx. specialize (IH (fun y Hy => H y (or_intror Hy))). lia.
Qed.

Lemma hlocal_length c h : (rmin c + nb_target c <= List.length h)%nat -> List.length (hlocal c h) = nb_target c.
Proof. intros H. unfold hlocal. rewrite firstn_length, skipn_length. lia. Qed.
Lemma hlocal_incl c h x : In x (hlocal c h) -> In x h.
Proof.
  unfold hlocal. intros H. rewrite <- (firstn_skipn (rmin c) h). apply in_or_app. right.
  rewrite <- (firstn_skipn (nb_target c) (skipn (rmin c) h)). apply in_or_app. now left.
Qed.

Lemma sumZ_upd l i : (i < List.length l)%nat -> sumZ (upd l i (fun x => (x + 1)%Z)) = (sumZ l + 1)%Z.
Proof.
  revert i. induction l as [|x l IH]; intros [|i] H; cbn [upd sumZ fold_right List.length] in *; try lia.
  unfold sumZ in IH. rewrite IH by lia. lia.
Qed.

Lemma sumZ_zeros n : sumZ (zeros n) = 0%Z.
Proof. induction n as [|n IH]; [reflexivity|]. cbn [zeros repeat sumZ fold_right]. unfold sumZ, zeros in IH. rewrite IH. reflexivity. Qed.

Lemma nth_zeros i n : nth i (zeros n) 0%Z = 0%Z.
Proof. unfold zeros. destruct (le_lt_dec n i); [apply nth_overflow; now rewrite repeat_length | apply nth_repeat]. Qed.

Lemma same_multiset_spec a b : same_multiset a b = true <->
  List.length a = List.length b /\ forall r, cnt (aa_eqb r) a = cnt (aa_eqb r) b.
Proof.
  unfold same_multiset. split.
  - intros [L%Nat.eqb_eq F]%andb_prop. split; [exact L|]. intros r. apply Z.eqb_eq, (proj1 (forallb_forall _ _) F), all20_complete.
  - intros [L F]. apply andb_true_intro. split; [apply Nat.eqb_eq, L|]. apply forallb_forall. intros r _. apply Z.eqb_eq, F.
Qed.

Lemma same_multiset_refl a : same_multiset a a = true.
Proof. now apply same_multiset_spec. Qed.

Lemma same_multiset_trans a b c : same_multiset a b = true -> same_multiset b c = true -> same_multiset a c = true.
Proof.
  intros [L1 F1]%same_multiset_spec [L2 F2]%same_multiset_spec. apply same_multiset_spec.
  split; [congruence|]. intros r. rewrite F1. apply F2.
Qed.

Definition WInv (c : wlcfg) (input : list aa) (s : wlst) : Prop :=
  same_multiset (cur s) input = true /\
  List.length (gv s) = nb_actual c /\ List.length (hv s) = nb_actual c /\ List.length (gbase s) = nb_actual c /\
  (idx_old s < nb_actual c)%nat /\
  sumZ (hv s) = counted s /\
  (forall i, nth i (gv s) 0 == nth i (gbase s) 0 + lnf (kexp s) * inject_Z (nth i (hv s) 0%Z))%Q.

(* an iteration starts from an empty histogram, with the current g as its base *)
Lemma iteration_start_inv c input cu idx g k ns ni : same_multiset cu input = true -> List.length g = nb_actual c ->
  (idx < nb_actual c)%nat ->
  WInv c input {| cur := cu; idx_old := idx; gv := g; hv := zeros (nb_actual c); kexp := k; nstep := ns; niter := ni;
                  gbase := g; counted := 0 |}.
Proof.
  intros Hm Lg Hi. unfold WInv. cbn [cur gv hv gbase idx_old counted kexp].
  repeat split; try assumption; [apply repeat_length | apply sumZ_zeros|].
  intros i. rewrite nth_zeros. unfold inject_Z. ring.
Qed.

Lemma init_inv c input start idx0 : same_multiset start input = true -> (idx0 < nb_actual c)%nat ->
  WInv c input (wl_init c start idx0).
Proof. intros Hm Hi. apply iteration_start_inv; [exact Hm | apply repeat_length | exact Hi]. Qed.

Lemma side_idx c s e : side_ok c s e = true -> (e_idx e < nb_actual c)%nat /\ same_multiset (e_prop e) (cur s) = true /\
  (e_acc e = true -> in_range c (e_idx e) = true).
Proof.
  unfold side_ok. intros H. apply andb_prop in H. destruct H as [H H4]. apply andb_prop in H. destruct H as [H H3].
  apply andb_prop in H. destruct H as [H1 H2]. split; [|split; [exact H1|]].
  - apply existsb_exists in H2. destruct H2 as [k [_ Hk]]. unfold nearest_ok in Hk. apply andb_prop in Hk. destruct Hk as [Hk _].
    now apply Nat.ltb_lt in Hk.
  - intros Ha. apply Bool.eqb_prop in H3. destruct (e_skip e) eqn:Es.
    + rewrite Ha in H4. cbn in H4. discriminate.
    + symmetry in H3. apply negb_false_iff in H3. exact H3.
Qed.

(* a step either closes an iteration (a scheduled check finds the histogram flat) or continues it *)
Lemma wl_step_cases c s e :
  let cur' := if e_acc e then e_prop e else cur s in
  let idx' := if e_acc e then e_idx e else idx_old s in
  let g' := if e_skip e then gv s else upd (gv s) idx' (fun x => Qred (x + lnf (kexp s))%Q) in
  let h' := if e_skip e then hv s else upd (hv s) idx' (fun x => (x + 1)%Z) in
  ((S (nstep s) mod nflat c = 0)%nat /\ is_flat c h' = true /\
   wl_step c s e = {| cur := cur'; idx_old := idx'; gv := g'; hv := zeros (nb_actual c); kexp := S (kexp s); nstep := 0;
                      niter := S (niter s); gbase := g'; counted := 0 |}) \/
  wl_step c s e = {| cur := cur'; idx_old := idx'; gv := g'; hv := h'; kexp := kexp s;
                     nstep := if (S (nstep s) mod nflat c =? 0)%nat then 0%nat else S (nstep s); niter := niter s;
                     gbase := gbase s; counted := if e_skip e then counted s else (counted s + 1)%Z |}.
Proof.
  cbv zeta. unfold wl_step. destruct (S (nstep s) mod nflat c =? 0)%nat eqn:E1; [destruct (is_flat c _) eqn:E2|].
  - left. apply Nat.eqb_eq in E1. repeat split. exact E1.
  - right. reflexivity.
  - right. reflexivity.
Qed.

Lemma cur_wl_step c s e : cur (wl_step c s e) = if e_acc e then e_prop e else cur s.
Proof. destruct (wl_step_cases c s e) as [(_ & _ & ->) | ->]; reflexivity. Qed.

Lemma idx_old_wl_step c s e : idx_old (wl_step c s e) = if e_acc e then e_idx e else idx_old s.
Proof. destruct (wl_step_cases c s e) as [(_ & _ & ->) | ->]; reflexivity. Qed.

Theorem step_inv c input s e : WInv c input s -> side_ok c s e = true -> WInv c input (wl_step c s e).
Proof.
  intros (Hm & Lg & Lh & Lb & Hi & Hs & Hg) Hside. destruct (side_idx c s e Hside) as (Hidx & Hprop & _).
  pose proof (wl_step_cases c s e) as Hc. cbv zeta in Hc.
  set (cur' := if e_acc e then e_prop e else _) in *. set (idx' := if e_acc e then e_idx e else _) in *.
  assert (Hidx' : (idx' < nb_actual c)%nat) by (unfold idx'; destruct (e_acc e); assumption).
  assert (Hm' : same_multiset cur' input = true)
    by (unfold cur'; destruct (e_acc e); [eapply same_multiset_trans; eassumption | exact Hm]).
  destruct Hc as [(_ & _ & ->) | ->].
  - apply iteration_start_inv; [exact Hm' | destruct (e_skip e); [exact Lg | now rewrite upd_length] | exact Hidx'].
  - unfold WInv. cbn [cur gv hv gbase idx_old counted kexp]. destruct (e_skip e); [repeat split; assumption|].
    rewrite !upd_length. repeat split; try assumption.
    + rewrite sumZ_upd by (rewrite Lh; exact Hidx'). now rewrite Hs.
    + intros i. destruct (Nat.eq_dec i idx') as [->|Hne].
      * rewrite !nth_upd_same by (rewrite ?Lg, ?Lh; exact Hidx'). rewrite Qred_correct, Hg, inject_Z_plus. ring.
      * rewrite !nth_upd_other by exact Hne. apply Hg.
Qed.

Theorem run_inv c input es : forall s s', WInv c input s -> wl_run c s es = Some s' -> WInv c input s'.
Proof.
  induction es as [|e es IH]; intros s s' Hinv H; cbn [wl_run] in H; [injection H as <-; exact Hinv|].
  destruct (side_ok c s e) eqn:E; [|discriminate]. eapply IH; [apply step_inv; eassumption | exact H].
Qed.

(* a move is only ever made into a bin of the requested range *)
Theorem accepted_in_range c s e : side_ok c s e = true -> e_acc e = true -> in_range c (e_idx e) = true.
Proof. intros H. apply (side_idx c s e H). Qed.

Theorem accepted_moves_to_proposal c s e : e_acc e = true ->
  cur (wl_step c s e) = e_prop e /\ idx_old (wl_step c s e) = e_idx e.
Proof. intros Ha. rewrite cur_wl_step, idx_old_wl_step, Ha. split; reflexivity. Qed.

Theorem rejected_stays c s e : e_acc e = false -> cur (wl_step c s e) = cur s /\ idx_old (wl_step c s e) = idx_old s.
Proof. intros Ha. rewrite cur_wl_step, idx_old_wl_step, Ha. split; reflexivity. Qed.

(* f changes exactly at a scheduled check that finds the histogram flat; the histogram is then reset *)
Theorem f_schedule c s e :
  let h' := if e_skip e then hv s else upd (hv s) (if e_acc e then e_idx e else idx_old s) (fun x => (x + 1)%Z) in
  (kexp (wl_step c s e) = S (kexp s) /\ hv (wl_step c s e) = zeros (nb_actual c) /\ niter (wl_step c s e) = S (niter s)) \/
  (kexp (wl_step c s e) = kexp s /\ hv (wl_step c s e) = h' /\ niter (wl_step c s e) = niter s).
Proof. cbv zeta. destruct (wl_step_cases c s e) as [(_ & _ & ->) | ->]; [left | right]; repeat split. Qed.

Theorem f_changes_only_when_flat c s e : kexp (wl_step c s e) <> kexp s ->
  (S (nstep s) mod nflat c = 0)%nat /\
  is_flat c (if e_skip e then hv s else upd (hv s) (if e_acc e then e_idx e else idx_old s) (fun x => (x + 1)%Z)) = true.
Proof. destruct (wl_step_cases c s e) as [(H1 & H2 & _) | ->]; [split; assumption | cbn [kexp]; congruence]. Qed.

(* every bin of the range holds at least crit x the mean count when the check passes *)
Theorem flat_means c h : is_flat c h = true -> (0 < nb_target c)%nat -> List.length (hlocal c h) = nb_target c ->
  forall x, In x (hlocal c h) -> (crit c * inject_Z (sumZ (hlocal c h)) <= inject_Z x * inject_Z (Z.of_nat (nb_target c)))%Q.
Proof.
  unfold is_flat, flatness_number. intros H Hn Hl x Hx.
  destruct (sumZ (hlocal c h) =? 0)%Z; [apply Nat.eqb_eq in H; lia|]. apply Nat.eqb_eq in H.
  assert (Hall : filter (fun x0 => Qle_bool (crit c * inject_Z (sumZ (hlocal c h))) (inject_Z x0 * inject_Z (Z.of_nat (nb_target c)))) (hlocal c h) = hlocal c h)
    by (apply filter_all; congruence).
  rewrite <- Hall in Hx. apply filter_In in Hx. destruct Hx as [_ Hx]. now apply Qle_bool_iff in Hx.
Qed.

Lemma Qmake_nat a k : (0 < k)%nat -> (a # Pos.of_nat k == inject_Z a / inject_Z (Z.of_nat k))%Q.
Proof. intros H. now rewrite Qmake_Qdiv, pos_of_nat_Z. Qed.

Lemma midpoint_frac i n : (0 < n)%nat ->
  (Z.of_nat (2 * i + 1) # Pos.of_nat (2 * n) == (inject_Z (Z.of_nat i) + (1 # 2)) / inject_Z (Z.of_nat n))%Q.
Proof.
  intros Hn. rewrite Qmake_nat by lia.
  replace (Z.of_nat (2 * i + 1)) with (2 * Z.of_nat i + 1)%Z by lia. replace (Z.of_nat (2 * n)) with (2 * Z.of_nat n)%Z by lia.
  rewrite inject_Z_plus, !inject_Z_mult. field. apply inject_Z_nz. lia.
Qed.

Theorem centre_midpoint c i : (0 < nb_actual c)%nat ->
  (centre c i == (inject_Z (Z.of_nat i) + (1 # 2)) / inject_Z (Z.of_nat (nb_actual c)))%Q.
Proof. exact (midpoint_frac i (nb_actual c)). Qed.

Theorem centres_count c : List.length (centres c) = nb_actual c.
Proof. unfold centres. now rewrite map_length, seq_length. Qed.

Theorem relevant_window_size c : (0 < nb_target c)%nat -> (rmax c - rmin c + 1 = nb_target c)%nat.
Proof. unfold rmax. lia. Qed.

Theorem in_range_iff c i : in_range c i = true <-> (rmin c <= i <= rmax c)%nat.
Proof. unfold in_range. rewrite andb_true_iff, !Nat.leb_le. tauto. Qed.

(* a range aligned with the partition of [0,1] into nb_actual bins (bmin = rmin/N, bmax = (rmin+nb)/N): the relevant
   window is exactly the set of bins whose centre lies in the requested range *)
Theorem aligned_window c (bmin bmax : Q) i : (0 < nb_actual c)%nat -> (0 < nb_target c)%nat ->
  (bmin == (Z.of_nat (rmin c) # Pos.of_nat (nb_actual c)))%Q ->
  (bmax == (Z.of_nat (rmin c + nb_target c) # Pos.of_nat (nb_actual c)))%Q ->
  (in_range c i = true <-> (bmin < centre c i /\ centre c i < bmax)%Q).
Proof.
  intros Hn Hnb Hmin Hmax. rewrite in_range_iff. unfold rmax. rewrite Hmin, Hmax. unfold centre, Qlt. cbn [Qnum Qden].
  rewrite !pos_of_nat_Z by lia. split; intros [H1 H2]; split; nia.
Qed.

Lemma round_half_even_int x z : (x == inject_Z z)%Q -> round_half_even x = z.
Proof.
  intros H. unfold round_half_even. rewrite (Qfloor_comp _ _ H), Qfloor_Z. cbv zeta.
  assert (E : (x - inject_Z z == 0)%Q) by (rewrite H; ring). rewrite !E. reflexivity.
Qed.

Lemma rhe_compat x y : (x == y)%Q -> round_half_even x = round_half_even y.
Proof.
  intros H. unfold round_half_even. rewrite (Qfloor_comp _ _ H).
  assert (E : (x - inject_Z (Qfloor y) == y - inject_Z (Qfloor y))%Q) by (rewrite H; reflexivity).
  rewrite (Qleb_comp _ _ E _ _ (Qeq_refl _)), (Qeqb_comp _ _ E _ _ (Qeq_refl _)). reflexivity.
Qed.

Lemma Qabs_diff_pos x y : ~ (x == y)%Q -> (0 < Qabs (x - y))%Q.
Proof. destruct x as [a p], y as [b q]. unfold Qeq, Qlt. cbn. lia. Qed.

(* numpy argmin keeps the first minimum: the candidate changes only on a strictly smaller distance, so a
   strict minimum r is taken when it is met and kept from then on *)
Lemma argmin_fold_unique (dist : nat -> Q) r l : forall b,
  In r (b :: l) -> (forall i, In i (b :: l) -> i <> r -> (dist r < dist i)%Q) ->
  fold_left (fun best i => if Qle_bool (dist best) (dist i) then best else i) l b = r.
Proof.
  induction l as [|i l IH]; intros b Hin Hmin; cbn [fold_left].
  - destruct Hin as [->|[]]. reflexivity.
  - assert (Hstep : (if Qle_bool (dist b) (dist i) then b else i) = r \/ In r l).
    { destruct Hin as [->|[->|Hin]]; [left | left | now right].
      - (* b = r is kept *)
        destruct (Nat.eq_dec i r) as [->|Hi]; [now destruct (Qle_bool _ _)|].
        rewrite (proj2 (Qle_bool_iff _ _)); [reflexivity | apply Qlt_le_weak, Hmin; cbn [In]; tauto].
      - (* i = r is taken, unless b = r already *)
        destruct (Qle_bool (dist b) (dist r)) eqn:E; [|reflexivity]. apply Qle_bool_iff in E.
        destruct (Nat.eq_dec b r) as [Hb|Hb]; [exact Hb|]. destruct (Qlt_not_le _ _ (Hmin b (or_introl eq_refl) Hb) E). }
    apply IH; [exact Hstep|]. intros j Hj. apply Hmin. cbn [In]. destruct Hj as [<-|Hj]; [destruct (Qle_bool _ _)|]; auto.
Qed.

(* the search depends on the distances only up to == *)
Lemma argmin_fold_ext (d1 d2 : nat -> Q) n : (forall i, (i < n)%nat -> (d1 i == d2 i)%Q) ->
  forall l b, (b < n)%nat -> (forall i, In i l -> (i < n)%nat) ->
  fold_left (fun best i => if Qle_bool (d1 best) (d1 i) then best else i) l b =
  fold_left (fun best i => if Qle_bool (d2 best) (d2 i) then best else i) l b.
Proof.
  intros Hd. induction l as [|i l IH]; intros b Hb Hl; [reflexivity|]. cbn [fold_left].
  assert (Hi : (i < n)%nat) by (apply Hl; now left).
  rewrite (Hd b Hb), (Hd i Hi). destruct (Qle_bool _ _); apply IH; try assumption; intros j Hj; apply Hl; now right.
Qed.

(* a target that is exactly centre number r selects r *)
Lemma rmin_of_centre na w bmin r : (r < na)%nat ->
  (bmin + w / 2 == Z.of_nat (2 * r + 1) # Pos.of_nat (2 * na))%Q -> rmin_of na w bmin = r.
Proof.
  intros Hr Ht. unfold rmin_of.
  assert (Hseq : forall i, In i (0%nat :: seq 1 (na - 1)) <-> (i < na)%nat) by (intros i; cbn [In]; rewrite in_seq; lia).
  apply argmin_fold_unique; [now apply Hseq|]. intros i Hi Hne. apply Hseq in Hi.
  rewrite Ht. unfold Qminus at 1. rewrite Qplus_opp_r. apply Qabs_diff_pos.
  unfold Qeq. cbn [Qnum Qden]. rewrite Z.mul_cancel_r by discriminate. lia.
Qed.

(* __init__'s arithmetic recovers N and rmin from an aligned request: binWidth is 1/N, so 1 / binWidth is the
   integer N, and binmin + binWidth / 2 is centre number rmin *)
Theorem geom_of_aligned_any na r nb : (1 <= nb)%nat -> (r + nb <= na)%nat ->
  geom_of nb (Z.of_nat r # Pos.of_nat na) (Z.of_nat (r + nb) # Pos.of_nat na) = (na, r).
Proof.
  intros Hnb Hr. unfold geom_of. cbv zeta.
  pose proof (inject_Z_nz (Z.of_nat na) ltac:(lia)) as HN. pose proof (inject_Z_nz (Z.of_nat nb) ltac:(lia)) as HB.
  set (w := (_ / inject_Z (Z.of_nat nb))%Q).
  assert (Hw : (w == 1 / inject_Z (Z.of_nat na))%Q).
  { unfold w. rewrite !Qmake_nat, Nat2Z.inj_add, inject_Z_plus by lia. field. now split. }
  assert (Ena : round_half_even (1 / w) = Z.of_nat na) by (apply round_half_even_int; rewrite Hw; now field).
  rewrite Ena, Nat2Z.id. f_equal. apply rmin_of_centre; [lia|].
  rewrite Hw, midpoint_frac, Qmake_nat by lia. now field.
Qed.

Theorem geom_of_aligned na r nb : (1 <= na <= 24)%nat -> (1 <= nb)%nat -> (r + nb <= na)%nat ->
  geom_of nb (Z.of_nat r # Pos.of_nat na) (Z.of_nat (r + nb) # Pos.of_nat na) = (na, r).
Proof. intros _. apply geom_of_aligned_any. Qed.
