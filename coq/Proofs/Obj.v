(* Proofs/Obj.v — C15: read-only queries are history-independent and never change the view. *)
From Coq Require Import ZArith List.
From LC Require Import Core.Residue Model.Html Model.Obj.
Import ListNotations.

Definition Inv (o : obj) : Prop :=
  (odmax o = None \/ odmax o = Some (fst (search (oseq o)))) /\
  (operm o = None \/ operm o = Some (snd (search (oseq o)))).

Definition view (o : obj) : list aa * list nat * palette := (oseq o, ophos o, opal o).

Lemma inv_fresh s ph pal : Inv (fresh s ph pal).
Proof. split; left; reflexivity. Qed.

Lemma dmax_step_view o b : view (fst (dmax_step o b)) = view o.
Proof.
  unfold dmax_step. destruct (odmax o) as [d|], b, (operm o) as [t|]; cbn [fst]; try reflexivity;
    destruct (search (oseq o)) as [d' t']; reflexivity.
Qed.

(* under Inv the cache can only hold what the search returns, so a step is a function of the sequence alone *)
Lemma dmax_step_spec o b : Inv o ->
  dmax_step o b =
  (let (d, t) := search (oseq o) in
   ({| oseq := oseq o; ophos := ophos o; opal := opal o; odmax := Some d; operm := if b then Some t else operm o |},
    if b then RPair d t else RQ d)).
Proof.
  destruct o as [s ph pal dm pm]. unfold Inv. cbn [oseq odmax operm ophos opal].
  intros [[-> | ->] [-> | ->]]; destruct b; unfold dmax_step; cbn [oseq odmax operm ophos opal];
    destruct (search s) as [d t]; reflexivity.
Qed.

Lemma dmax_step_inv o b : Inv o -> Inv (fst (dmax_step o b)).
Proof.
  intros H. rewrite (dmax_step_spec o b H). destruct H as [_ Hp]. destruct (search (oseq o)) as [d t] eqn:E.
  split; cbn [fst oseq odmax operm]; rewrite E; [now right | destruct b; [now right | exact Hp]].
Qed.

Lemma dmax_step_indep o b : Inv o -> snd (dmax_step o b) = snd (dmax_step (fresh_of o) b).
Proof.
  intros H. rewrite (dmax_step_spec o b H), (dmax_step_spec (fresh_of o) b (inv_fresh _ _ _)). cbn [fresh_of fresh oseq].
  now destruct (search (oseq o)).
Qed.

Theorem qstep_view o q : view (fst (qstep o q)) = view o.
Proof.
  destruct q; try reflexivity; unfold qstep, qstep_with.
  - pose proof (dmax_step_view o false) as H. destruct (dmax_step o false) as [o1 r]. exact H.
  - apply dmax_step_view.
Qed.

Theorem qstep_spec o q : Inv o -> Inv (fst (qstep o q)) /\ snd (qstep o q) = snd (qstep (fresh_of o) q).
Proof.
  intros H. destruct q; try (split; [exact H | reflexivity]); unfold qstep, qstep_with.
  - pose proof (dmax_step_inv o false H) as HI. pose proof (dmax_step_indep o false H) as E.
    destruct (dmax_step o false), (dmax_step (fresh_of o) false). cbn [fst snd] in *. now rewrite E.
  - split; [apply dmax_step_inv | apply dmax_step_indep]; exact H.
Qed.

Corollary qstep_inv o q : Inv o -> Inv (fst (qstep o q)).
Proof. intros H. apply (qstep_spec o q H). Qed.

Lemma run_view qs : forall o, view (run qs o) = view o.
Proof.
  induction qs as [|q qs IH]; intros o; [reflexivity|]. unfold run in *. cbn [fold_left].
  rewrite IH. apply qstep_view.
Qed.

Lemma run_inv qs : forall o, Inv o -> Inv (run qs o).
Proof.
  induction qs as [|q qs IH]; intros o H; [exact H|]. unfold run in *. cbn [fold_left]. apply IH. apply qstep_inv. exact H.
Qed.

Lemma fresh_of_view o o' : view o = view o' -> fresh_of o = fresh_of o'.
Proof. unfold view, fresh_of. intros H. injection H as -> -> ->. reflexivity. Qed.

(* whatever was asked before, a query answers as on a freshly constructed object, and the stored
   sequence, phosphosite list and palette are unchanged *)
Theorem query_history_independent o qs q : Inv o ->
  snd (qstep (run qs o) q) = snd (qstep (fresh_of o) q) /\ view (run qs o) = view o.
Proof.
  intros H. split; [|apply run_view].
  rewrite (proj2 (qstep_spec (run qs o) q (run_inv qs o H))). rewrite (fresh_of_view _ _ (run_view qs o)). reflexivity.
Qed.

(* several live objects: the model has no shared component, so any interleaving of queries on a family
   of objects answers each query as on a fresh copy of its own object *)
Definition step_family (os : list obj) (iq : nat * query) : list obj :=
  let '(i, q) := iq in
  map (fun jo => if Nat.eqb (fst jo) i then fst (qstep (snd jo) q) else snd jo) (combine (seq 0 (List.length os)) os).

Lemma step_family_length os iq : List.length (step_family os iq) = List.length os.
Proof. destruct iq as [i q]. unfold step_family. rewrite map_length, combine_length, seq_length. apply Nat.min_id. Qed.

Lemma step_family_pointwise os iq : Forall Inv os ->
  Forall2 (fun o o' => view o' = view o /\ Inv o') os (step_family os iq).
Proof.
  destruct iq as [i q]. unfold step_family. generalize 0%nat. induction os as [|o os IH]; intros k H; cbn; [constructor|].
  inversion H; subst. constructor; [|apply IH; assumption]. cbn [fst snd].
  destruct (Nat.eqb k i); [split; [apply qstep_view | apply qstep_inv; assumption] | split; [reflexivity | assumption]].
Qed.

(* before the fix of D2 (no restart of the search on a cached value) the cache short-circuit was observable *)
Theorem history_dependence_refuted : exists s,
  snd (qstep_pinned (fst (qstep_pinned (fresh s [] default_palette) QKappa)) (QDmax true)) <>
  snd (qstep_pinned (fresh s [] default_palette) (QDmax true)).
Proof. exists [Glu; Lys; Glu; Lys; Gly; Gly; Glu; Lys; Glu; Lys]. vm_compute. discriminate. Qed.

(* a non-trivial state meeting Inv: cache filled half-way by a 5-query history *)
Example inv_nonvacuous :
  let o := run [QKappa; QOmega; QDelta; QHtml; QKappaAfter] (fresh [Glu; Lys; Glu; Lys; Gly; Gly; Glu; Lys; Glu; Lys] [] default_palette) in
  odmax o <> None /\ operm o = None.
Proof. vm_compute. split; [discriminate | reflexivity]. Qed.
