(* Proofs/Moves.v — C17: every move only rearranges and leaves charge bookkeeping and the carried delta-max
   consistent; pair swap, charge swap and full shuffle keep the positions they are told to leave alone;
   chains by induction. *)
From Coq Require Import QArith List Lia Permutation.
From LC Require Import Core.Residue Core.Lists Spec.Delta Model.Delta Model.Phospho Model.Moves
     Proofs.DeltaMax Proofs.Phospho.
Import ListNotations.

Section Fill.
  Variables A B : list nat.
  Definition inA (p : nat) : bool := memn p A.
  Definition inB (p : nat) : bool := negb (memn p A) && memn p B.
  Definition neither (p : nat) : bool := negb (memn p A) && negb (memn p B).

  Lemma fill2_length ps : forall sa sb, List.length (fill2 ps A B sa sb) = List.length ps.
  Proof.
    induction ps as [|p ps IH]; intros sa sb; [reflexivity|]. cbn [fill2].
    destruct (memn p A); [destruct sa; cbn [List.length]; now rewrite IH|].
    destruct (memn p B); [destruct sb; cbn [List.length]; now rewrite IH|]. cbn [List.length]. now rewrite IH.
  Qed.

  Lemma fill2_perm ps : forall sa sb,
    List.length (filter inA ps) = List.length sa -> List.length (filter inB ps) = List.length sb ->
    Permutation (fill2 ps A B sa sb) (filter neither ps ++ sa ++ sb).
  Proof.
    induction ps as [|p ps IH]; intros sa sb Ha Hb.
    - destruct sa; [|discriminate]. destruct sb; [|discriminate]. constructor.
    - cbn [fill2 filter] in *. unfold inA, inB, neither in *. destruct (memn p A) eqn:EA; cbn [negb andb] in *.
      + destruct sa as [|x sa]; [discriminate|]. cbn [List.length] in Ha.
        eapply perm_trans; [apply perm_skip; apply IH; [lia | exact Hb]|].
        cbn [app]. apply Permutation_middle.
      + destruct (memn p B) eqn:EB; cbn [negb andb] in *.
        * destruct sb as [|x sb]; [discriminate|]. cbn [List.length] in Hb.
          eapply perm_trans; [apply perm_skip; apply IH; [exact Ha | lia]|].
          rewrite !app_assoc. apply Permutation_middle.
        * cbn [app]. apply perm_skip. apply IH; assumption.
  Qed.

  Lemma fill_partition ps : Permutation (filter neither ps ++ filter inA ps ++ filter inB ps) ps.
  Proof.
    induction ps as [|p ps IH]; [constructor|]. cbn [filter]. unfold inA, inB, neither in *.
    destruct (memn p A); cbn [negb andb]; [|destruct (memn p B); cbn [negb andb]].
    - apply Permutation_sym, Permutation_cons_app, Permutation_sym, IH.
    - rewrite app_assoc. apply Permutation_sym, Permutation_cons_app. rewrite <- app_assoc. apply Permutation_sym, IH.
    - apply perm_skip, IH.
  Qed.

  Lemma fill2_fixed ps : forall sa sb k, (k < List.length ps)%nat ->
    memn (nth k ps 0%nat) A = false -> memn (nth k ps 0%nat) B = false ->
    nth k (fill2 ps A B sa sb) 0%nat = nth k ps 0%nat.
  Proof.
    induction ps as [|p ps IH]; intros sa sb k Hk HA HB; [cbn in Hk; lia|].
    cbn [fill2]. destruct k as [|k]; cbn [nth List.length] in *; [now rewrite HA, HB|].
    assert (H : forall sa sb, nth k (fill2 ps A B sa sb) 0%nat = nth k ps 0%nat) by (intros; apply IH; [apply Nat.succ_lt_mono, Hk | assumption..]).
    destruct (memn p A); [destruct sa | destruct (memn p B); [destruct sb|]]; apply H.
  Qed.
End Fill.

Lemma inB_disjoint A B : (forall x, In x A -> ~ In x B) -> forall x, inB A B x = memn x B.
Proof.
  intros H x. unfold inB. destruct (memn x B) eqn:EB; [|apply andb_false_r].
  replace (memn x A) with false; [reflexivity|]. symmetry. apply memn_false. intros HA. apply (H x HA), memn_In, EB.
Qed.

Lemma nodupn_NoDup l : nodupn l = true -> NoDup l.
Proof.
  induction l as [|x l IH]; intros H; [constructor|]. cbn [nodupn] in H. apply andb_prop in H. destruct H as [H1 H2].
  constructor; [apply memn_false, negb_true_iff, H1 | apply IH, H2].
Qed.

Lemma fill2_perm_seq n A B sa sb :
  NoDup A -> NoDup B -> (forall x, In x A -> (x < n)%nat) -> (forall x, In x B -> (x < n)%nat) ->
  (forall x, In x A -> ~ In x B) ->
  List.length sa = List.length A -> Permutation (sa ++ sb) (A ++ B) ->
  Permutation (fill2 (seq 0 n) A B sa sb) (seq 0 n).
Proof.
  intros HA HB RA RB Hdis La Hp.
  assert (PA : Permutation (filter (inA A) (seq 0 n)) A) by (apply select_perm; assumption).
  assert (PB : Permutation (filter (inB A B) (seq 0 n)) B)
    by (rewrite (filter_ext _ _ (inB_disjoint A B Hdis)); apply select_perm; assumption).
  assert (Lb : List.length sb = List.length B) by (apply Permutation_length in Hp; rewrite !app_length in Hp; lia).
  eapply perm_trans; [apply fill2_perm; [rewrite (Permutation_length PA) | rewrite (Permutation_length PB)]; now symmetry|].
  eapply perm_trans; [|apply fill_partition]. apply Permutation_app_head.
  rewrite Hp. apply Permutation_sym, Permutation_app; assumption.
Qed.

Corollary fill2_exchange_perm n A B :
  NoDup A -> NoDup B -> (forall x, In x A -> (x < n)%nat) -> (forall x, In x B -> (x < n)%nat) ->
  (forall x, In x A -> ~ In x B) -> List.length A = List.length B ->
  Permutation (fill2 (seq 0 n) A B B A) (seq 0 n).
Proof. intros HA HB RA RB Hdis Hl. apply fill2_perm_seq; try assumption; [now symmetry | apply Permutation_app_comm]. Qed.

Lemma rearrange_id {X} (d : X) l : rearrange d l (seq 0 (List.length l)) = l.
Proof.
  unfold rearrange. apply nth_ext with (d := d) (d' := d); [now rewrite map_length, seq_length|].
  intros k Hk. rewrite map_length, seq_length in Hk. now rewrite nth_map_seq.
Qed.

Lemma rearrange_map {A B} (f : A -> B) (d : A) (l : list A) ix : rearrange (f d) (map f l) ix = map f (rearrange d l ix).
Proof. unfold rearrange. rewrite map_map. apply map_ext. intros k. apply map_nth. Qed.

Lemma rearrange_perm {X} (d : X) l idx : Permutation idx (seq 0 (List.length l)) -> Permutation (rearrange d l idx) l.
Proof. intros H. rewrite <- (rearrange_id d l) at 2. unfold rearrange. apply Permutation_map. exact H. Qed.

Lemma rearrange_nth {X} (d : X) l idx k : (k < List.length idx)%nat -> nth k (rearrange d l idx) d = nth (nth k idx 0%nat) l d.
Proof. apply (nth_map (fun j => nth j l d)). Qed.

Lemma rearrange_fill2_fixed {X} (d : X) l A B sa sb k : (k < List.length l)%nat -> memn k A = false -> memn k B = false ->
  nth k (rearrange d l (fill2 (seq 0 (List.length l)) A B sa sb)) d = nth k l d.
Proof.
  intros Hk HA HB. rewrite rearrange_nth by (rewrite fill2_length, seq_length; exact Hk).
  rewrite fill2_fixed; rewrite ?seq_length, ?seq_nth by exact Hk; trivial.
Qed.

Lemma rearrange_pat s idx : rearrange 0%Z (pat s) idx = pat (rearrange Ala s idx).
Proof.
  unfold rearrange, pat. rewrite map_map. apply map_ext. intros j.
  change 0%Z with (chg Ala). apply map_nth.
Qed.

Definition MInv (o : mobj) : Prop :=
  mpat o = pat (mseq o) /\ (mdmax o = None \/ mdmax o = Some (m_dmax (pat (mseq o)))).

Lemma m_dmax_perm s t : Permutation s t -> m_dmax (pat s) = m_dmax (pat t).
Proof.
  intros H. unfold m_dmax, m_dmax_arg.
  assert (E : natcomp (pat s) = natcomp (pat t)).
  { assert (Hp : Permutation (pat s) (pat t)) by (unfold pat; apply Permutation_map; exact H).
    pose proof (comp_perm _ _ Hp) as Hc. unfold comp in Hc. injection Hc as H1 H2 H3.
    unfold natcomp. now rewrite H1, H2, H3. }
  now rewrite E.
Qed.

Lemma dmax_cache_perm (d : option Q) s t : Permutation s t ->
  d = None \/ d = Some (m_dmax (pat t)) -> d = None \/ d = Some (m_dmax (pat s)).
Proof. intros H. now rewrite (m_dmax_perm s t H). Qed.

Lemma rebuilt_spec o idx : MInv o -> Permutation idx (seq 0 (List.length (mseq o))) ->
  let c := rebuilt o (rearrange Ala (mseq o) idx) in Permutation (mseq c) (mseq o) /\ MInv c.
Proof. intros [_ Hd] Hp. pose proof (rearrange_perm Ala _ _ Hp) as H. split; [exact H | split; [reflexivity | exact (dmax_cache_perm _ _ _ H Hd)]]. Qed.

Lemma swap_idx_perm n i j : (i < n)%nat -> (j < n)%nat -> i <> j -> Permutation (swap_idx n i j) (seq 0 n).
Proof.
  intros Hi Hj Hne. unfold swap_idx. apply fill2_exchange_perm; try reflexivity.
  - constructor; [intros [] | constructor].
  - constructor; [intros [] | constructor].
  - intros x [<-|[]]. exact Hi.
  - intros x [<-|[]]. exact Hj.
  - intros x [<-|[]] [E|[]]. congruence.
Qed.

Theorem swapRes_perm o i j : (i < List.length (mseq o))%nat -> (j < List.length (mseq o))%nat ->
  Permutation (mseq (swapRes o i j)) (mseq o).
Proof.
  intros Hi Hj. unfold swapRes. destruct (Nat.eqb i j) eqn:E; [apply Permutation_refl|].
  apply Nat.eqb_neq in E. cbn [mseq]. apply rearrange_perm. apply swap_idx_perm; assumption.
Qed.

Theorem swapRes_untouched o i j k : (k < List.length (mseq o))%nat -> k <> i -> k <> j ->
  nth k (mseq (swapRes o i j)) Ala = nth k (mseq o) Ala.
Proof.
  intros Hk Hi Hj. unfold swapRes. destruct (Nat.eqb i j); [reflexivity|]. cbn [mseq]. unfold swap_idx.
  apply rearrange_fill2_fixed; [exact Hk | |]; apply memn_false; intros [E|[]]; congruence.
Qed.

Theorem swapRes_inv o i j : (i < List.length (mseq o))%nat -> (j < List.length (mseq o))%nat ->
  MInv o -> MInv (swapRes o i j).
Proof.
  intros Hi Hj [Hp Hd]. pose proof (swapRes_perm o i j Hi Hj) as Hperm. unfold swapRes in *.
  destruct (Nat.eqb i j); [split; [reflexivity | left; reflexivity]|]. unfold MInv. cbn [mseq mpat mdmax] in *. split.
  - rewrite Hp. apply rearrange_pat.
  - exact (dmax_cache_perm _ _ _ Hperm Hd).
Qed.

Lemma idxs_spec f p fr x : In x (idxs f p fr) -> (x < List.length p)%nat /\ ~ In x fr.
Proof.
  unfold idxs. intros [H1%in_seq [_ H2%negb_true_iff%memn_false]%andb_prop]%filter_In. split; [lia | exact H2].
Qed.

Lemma pick_spec P Nn Z0 t x f1 f2 f3 p fr : P = idxs f1 p fr -> Nn = idxs f2 p fr -> Z0 = idxs f3 p fr ->
  memn x (pick P Nn Z0 t) = true -> (x < List.length p)%nat /\ ~ In x fr.
Proof.
  intros -> -> -> H. apply memn_In in H. unfold pick in H.
  destruct (Nat.eqb t 1); [eapply idxs_spec; exact H|]. destruct (Nat.eqb t 2); eapply idxs_spec; exact H.
Qed.

Theorem swapRand_spec o fr ct a b c : MInv o -> swapRand o fr ct a b = Some c ->
  Permutation (mseq c) (mseq o) /\ MInv c /\
  (forall k, In k fr -> (k < List.length (mseq o))%nat -> nth k (mseq c) Ala = nth k (mseq o) Ala).
Proof.
  intros HI H. unfold swapRand in H.
  destruct (charge_types _ _ _ ct) as [[[t1 t2]|]|]; [|injection H as <-; repeat split; [apply Permutation_refl | apply HI | apply HI]|discriminate].
  destruct (memn a _ && memn b _) eqn:E; [|discriminate]. injection H as <-.
  apply andb_prop in E. destruct E as [Ea Eb].
  assert (Hlen : List.length (mpat o) = List.length (mseq o)) by (destruct HI as [-> _]; unfold pat; apply map_length).
  destruct (pick_spec _ _ _ t1 a _ _ _ _ _ eq_refl eq_refl eq_refl Ea) as [Ha Hfa].
  destruct (pick_spec _ _ _ t2 b _ _ _ _ _ eq_refl eq_refl eq_refl Eb) as [Hb Hfb].
  rewrite Hlen in Ha, Hb.
  split; [apply swapRes_perm; assumption|]. split; [apply swapRes_inv; assumption|].
  intros k Hk Hkn. apply swapRes_untouched; [exact Hkn | intros ->; contradiction | intros ->; contradiction].
Qed.

Lemma same_set_perm a b : NoDup b -> same_set a b = true -> Permutation a b.
Proof.
  intros Hb. unfold same_set. intros [[[_ H2%nodupn_NoDup]%andb_prop H3]%andb_prop H4]%andb_prop.
  apply NoDup_Permutation; [exact H2 | exact Hb|]. pose proof (proj1 (forallb_forall _ _) H3). pose proof (proj1 (forallb_forall _ _) H4).
  intros x. split; intros Hx; apply memn_In; auto.
Qed.

Lemma movable_spec n fr x : In x (movable n fr) <-> (x < n)%nat /\ ~ In x fr.
Proof.
  unfold movable. split.
  - intros [H1%in_seq H2%negb_true_iff%memn_false]%filter_In. split; [lia | exact H2].
  - intros [H1 H2]. apply filter_In. split; [apply in_seq; lia | apply negb_true_iff, memn_false, H2].
Qed.

Theorem fullShuffle_spec o fr perm c : MInv o -> fullShuffle o fr perm = Some c ->
  Permutation (mseq c) (mseq o) /\ MInv c /\
  (forall k, In k fr -> (k < List.length (mseq o))%nat -> nth k (mseq c) Ala = nth k (mseq o) Ala).
Proof.
  intros HI H. unfold fullShuffle in H. set (n := List.length (mseq o)) in *.
  destruct (same_set perm (movable n fr)) eqn:E; [|discriminate]. injection H as <-.
  assert (Hnd : NoDup (movable n fr)) by (apply NoDup_filter; apply seq_NoDup).
  pose proof (same_set_perm _ _ Hnd E) as Hp.
  apply and_assoc. split.
  - apply rebuilt_spec; [exact HI|]. fold n. apply fill2_perm_seq; try exact Hnd.
    + constructor.
    + intros x Hx. apply movable_spec in Hx. tauto.
    + intros x [].
    + intros x _ [].
    + rewrite rev_length. apply Permutation_length. exact Hp.
    + rewrite !app_nil_r, <- Hp. apply Permutation_sym, Permutation_rev.
  - intros k Hk Hkn. apply rearrange_fill2_fixed; [exact Hkn | | reflexivity].
    apply memn_false. rewrite movable_spec. tauto.
Qed.

Lemma seq_lt a L n x : (a + L <= n)%nat -> In x (seq a L) -> (x < n)%nat.
Proof. intros H Hx. apply in_seq in Hx. lia. Qed.

Lemma blockSwap_Some o bs i1 i2 c : blockSwap o bs i1 i2 = Some c ->
  let n := List.length (mseq o) in let L := (bs - 1)%nat in let j := (i2 + bs - 1)%nat in
  (2 <= bs /\ bs <= n / 2 /\ i1 < i2 /\ i2 < n - L * 2)%nat /\
  c = rebuilt o (rearrange Ala (mseq o) (fill2 (seq 0 n) (seq i1 L) (seq j L) (seq j L) (seq i1 L))).
Proof.
  unfold blockSwap. destruct (_ && _) eqn:E; [|discriminate]. intros [= <-]. split; [|reflexivity].
  apply andb_prop in E as [[[E1%Nat.leb_le E2%Nat.leb_le]%andb_prop E3%Nat.ltb_lt]%andb_prop E4%Nat.ltb_lt].
  repeat split; assumption.
Qed.

Theorem blockSwap_spec o bs i1 i2 c : MInv o -> blockSwap o bs i1 i2 = Some c ->
  Permutation (mseq c) (mseq o) /\ MInv c.
Proof.
  intros HI H. destruct (blockSwap_Some _ _ _ _ _ H) as [(_ & _ & H3 & H4) ->].
  apply rebuilt_spec; [exact HI|]. apply fill2_exchange_perm; try apply seq_NoDup.
  - intros x. apply seq_lt. lia.
  - intros x. apply seq_lt. lia.
  - intros x Hx Hx'. apply in_seq in Hx. apply in_seq in Hx'. lia.
  - now rewrite !seq_length.
Qed.

Lemma insert_sorted_perm x l : Permutation (insert_sorted x l) (x :: l).
Proof.
  induction l as [|y l IH]; [apply Permutation_refl|]. cbn [insert_sorted]. destruct (x <=? y)%nat; [apply Permutation_refl|].
  eapply perm_trans; [apply perm_skip; exact IH | apply perm_swap].
Qed.

Lemma sort_nat_perm l : Permutation (sort_nat l) l.
Proof.
  induction l as [|x l IH]; [constructor|]. cbn [sort_nat fold_right]. fold (sort_nat l).
  eapply perm_trans; [apply insert_sorted_perm | apply perm_skip; exact IH].
Qed.

Lemma clusterMove_Some o st sz sw c : clusterMove o st sz sw = Some c ->
  let n := List.length (mseq o) in
  ((st + sz <= n)%nat /\ List.length sw = sz /\ NoDup sw /\ forall x, In x sw -> (x < n)%nat /\ ~ In x (seq st sz)) /\
  c = rebuilt o (rearrange Ala (mseq o) (fill2 (seq 0 n) (sort_nat sw) (seq st sz) (seq st sz) (sort_nat sw))).
Proof.
  unfold clusterMove. destruct (_ && _) eqn:E; [|discriminate]. intros [= <-]. split; [|reflexivity].
  apply andb_prop in E as [[[[_ H2%Nat.leb_le]%andb_prop H3%Nat.eqb_eq]%andb_prop H4%nodupn_NoDup]%andb_prop H5].
  repeat apply conj; [exact H2 | exact H3 | exact H4|].
  intros x Hx. apply (proj1 (forallb_forall _ _) H5) in Hx as [Hn%Nat.ltb_lt Hc%negb_true_iff%memn_false]%andb_prop.
  split; assumption.
Qed.

Theorem clusterMove_spec o st sz sw c : MInv o -> clusterMove o st sz sw = Some c ->
  Permutation (mseq c) (mseq o) /\ MInv c.
Proof.
  intros HI H. destruct (clusterMove_Some _ _ _ _ _ H) as [(H1 & H2 & H3 & H4) ->]. pose proof (sort_nat_perm sw) as Hs.
  apply rebuilt_spec; [exact HI|]. apply fill2_exchange_perm.
  - apply (Permutation_NoDup (Permutation_sym Hs)), H3.
  - apply seq_NoDup.
  - intros x Hx. apply H4, (Permutation_in _ Hs), Hx.
  - intros x. apply seq_lt, H1.
  - intros x Hx. apply H4, (Permutation_in _ Hs), Hx.
  - rewrite (Permutation_length Hs), seq_length. exact H2.
Qed.

Theorem move_spec o m c : MInv o -> apply_move o m = Some c -> Permutation (mseq c) (mseq o) /\ MInv c.
Proof.
  intros HI H. destruct m; cbn [apply_move] in H.
  - destruct (_ && _) eqn:E; [|discriminate]. injection H as <-. apply andb_prop in E. destruct E as [E1 E2].
    apply Nat.ltb_lt in E1. apply Nat.ltb_lt in E2. split; [apply swapRes_perm | apply swapRes_inv]; assumption.
  - destruct (swapRand_spec o frozen ct a b c HI H) as [H1 [H2 _]]. split; assumption.
  - destruct (charge_types _ _ _ _) as [[?|]|]; try discriminate. injection H as <-. split; [apply Permutation_refl | exact HI].
  - destruct (fullShuffle_spec o frozen perm c HI H) as [H1 [H2 _]]. split; assumption.
  - apply (blockSwap_spec o bs i1 i2 c HI H).
  - apply (clusterMove_spec o start size sw c HI H).
  - injection H as <-. split; [apply Permutation_refl|]. destruct HI as [Hp _]. split; [exact Hp|].
    right. cbn [with_dmax mdmax mseq]. now rewrite Hp.
Qed.

Fixpoint apply_chain (o : mobj) (ms : list move) : option mobj :=
  match ms with
  | [] => Some o
  | m :: ms' => match apply_move o m with Some c => apply_chain c ms' | None => None end
  end.

Theorem chain_spec ms : forall o c, MInv o -> apply_chain o ms = Some c -> Permutation (mseq c) (mseq o) /\ MInv c.
Proof.
  induction ms as [|m ms IH]; intros o c HI H; cbn [apply_chain] in H.
  - injection H as <-. split; [apply Permutation_refl | exact HI].
  - destruct (apply_move o m) as [c1|] eqn:E; [|discriminate].
    destruct (move_spec o m c1 HI E) as [P1 I1]. destruct (IH c1 c I1 H) as [P2 I2].
    split; [eapply perm_trans; eassumption | exact I2].
Qed.

Lemma mfresh_inv s : MInv (mfresh s).
Proof. split; [reflexivity | left; reflexivity]. Qed.

(* D9: block swap moves frozen positions (blockSwap takes no frozen argument) *)
Theorem block_swap_moves_frozen_positions : exists o bs i1 i2 c k,
  blockSwap o bs i1 i2 = Some c /\ nth k (mseq c) Ala <> nth k (mseq o) Ala.
Proof.
  exists (mfresh [Glu; Lys; Gly; Ser; Asp; Arg]), 2%nat, 0%nat, 1%nat. eexists. exists 0%nat.
  split; [vm_compute; reflexivity | vm_compute; discriminate].
Qed.
