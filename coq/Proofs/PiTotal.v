(* Proofs/PiTotal.v — C09: get_isoelectric_point never raises.  Part 1 (pure Q): for EVERY oracle f
   that is approximately non-increasing, approximately 1-Lipschitz on short distances, not very
   negative at pH <= 1 and not very positive at pH >= 15, the loop returns within 28 evaluations;
   the escape clause fires at most once (Arg-rich sequences, pI > 14). *)
From Coq Require Import QArith List Lia Lqa.
From LC Require Import Model.Titration Proofs.Titration.
Import ListNotations.

Fixpoint hp (k : nat) : Q := match k with O => 1 | S k' => hp k' * (1 # 2) end.

Lemma hp_pos k : 0 < hp k.
Proof. induction k as [|k IH]; cbn [hp]; lra. Qed.

Lemma hp_anti k k' : (k <= k')%nat -> hp k' <= hp k.
Proof.
  induction 1 as [|m _ IH]; [lra|]. cbn [hp]. pose proof (hp_pos m). lra.
Qed.

Lemma hp_4 : hp 4 == 1 # 16.  Proof. reflexivity. Qed.
Lemma hp_5 : hp 5 == 1 # 32.  Proof. reflexivity. Qed.

Lemma pi_fuel_mono (f : Q -> Q) m : forall n lo hi bc ec prev vis x tr,
  pi_loop f n lo hi bc ec prev vis = (Some x, tr) -> pi_loop f (n + m) lo hi bc ec prev vis = (Some x, tr).
Proof.
  induction n as [|n IH]; intros lo hi bc ec prev vis x tr H; [discriminate|]. cbn [Nat.add].
  destruct (pi_step f lo hi bc ec prev vis) as [(_ & _ & E)|(lo1 & hi1 & bc' & ec' & mid & _ & _ & [[_ E]|[[_ E]|[_ E]]])];
    rewrite E in H |- *.
  - exact H.
  - exact (IH _ _ _ _ _ _ _ _ H).
  - exact (IH _ _ _ _ _ _ _ _ H).
  - exact H.
Qed.

Section Bisect.
Variable f : Q -> Q.
Hypothesis P1 : forall x y, x <= y -> f y <= f x + (2 # 1000).
Hypothesis P2 : forall x y, x <= y -> y - x <= 1 # 16 -> f x - f y <= (y - x) + (2 # 1000).
Hypothesis P3a : forall x, x <= 1 -> - (11 # 1000) <= f x.
Hypothesis P3b : forall x, 15 <= x -> f x <= 11 # 1000.

(* A bound that has moved is a midpoint at which the charge was beyond the threshold.  f is monotone only up to
   a slack, so that one point is all that is known: nothing is claimed about f on the rest of the interval. *)
Definition CertLo (lo : Q) : Prop := exists z, lo <= z /\ 2 # 100 < f z.
Definition CertHi (hi : Q) : Prop := exists z, z <= hi /\ f z < - (2 # 100).

(* two points whose values differ by more than the slack lie apart: in this order by P1, not close by P2 *)
Lemma gap z1 z2 a b d : a < f z1 -> f z2 <= b -> 0 <= d -> d <= 1 # 16 -> d <= a - b - (2 # 1000) -> z1 + d < z2.
Proof.
  intros Ha Hb H0 H16 Hd. destruct (Qlt_le_dec z1 z2) as [Hlt|Hge]; [|pose proof (P1 z2 z1 Hge); lra].
  destruct (Qlt_le_dec (1 # 16) (z2 - z1)) as [Hfar|Hnear]; [lra|].
  pose proof (P2 z1 z2 ltac:(lra) Hnear). lra.
Qed.

Lemma certlo_lt15 lo : CertLo lo -> lo + (1 # 256) < 15.
Proof.
  intros [z [Hz Hf]]. pose proof (gap z 15 (2 # 100) (11 # 1000) (1 # 256) Hf (P3b 15 ltac:(lra))). lra.
Qed.

Lemma certhi_gt1 hi : CertHi hi -> 1 + (1 # 256) < hi.
Proof.
  intros [z [Hz Hf]]. pose proof (P3a 1 ltac:(lra)).
  pose proof (gap 1 z (- (12 # 1000)) (- (2 # 100)) (1 # 256) ltac:(lra) ltac:(lra)). lra.
Qed.

Lemma cert_both lo hi : CertLo lo -> CertHi hi -> lo + (1 # 32) < hi.
Proof.
  intros [z1 [Hz1 Hf1]] [z2 [Hz2 Hf2]].
  pose proof (gap z1 z2 (2 # 100) (- (2 # 100)) (1 # 32) Hf1 ltac:(lra)). lra.
Qed.

(* errorcount = 0: [0, 14] halved bc times, each bound still the initial one or certified.  While hi is still 14
   every step so far has moved lo, so the last charge is above the threshold: that is what makes the escape at
   breakcount 20 raise max_pH (protein_charge > 0) and not lower min_pH. *)
Definition Inv0 (lo hi : Q) (bc : nat) (prev : Q) : Prop :=
  (bc <= 19)%nat /\ 0 <= lo /\ lo <= hi /\ hi <= 14 /\ hi - lo <= 14 * hp bc /\
  (lo == 0 \/ CertLo lo) /\
  ((hi == 14 /\ ((1 <= bc)%nat -> 2 # 100 < prev)) \/ CertHi hi).

(* errorcount = 1: the escape step leaves [lo, 15] with 14 - lo tiny and bisects it at once, so the width starts
   at 1 and halves from there; lo is certified, hi is 15 or certified. *)
Definition Inv1 (lo hi : Q) (bc : nat) : Prop :=
  (bc <= 19)%nat /\ lo <= hi /\ hi <= 15 /\ hi - lo <= hp bc /\ CertLo lo /\ (hi == 15 \/ CertHi hi).

Lemma inv1_bc lo hi bc : Inv1 lo hi bc -> (bc <= 7)%nat.
Proof.
  intros (_ & Hle & H15 & Hw & HL & HH).
  destruct (le_lt_dec bc 7) as [|Hbig]; [assumption|exfalso].
  (* from 8 halvings on the width is at most 1/256, but a certified lo stays more than 1/256 below 15 (P2 and P3b:
     0.02 - 0.011 - 0.002 > 1/256) and more than 1/32 below a certified hi (0.04 - 0.002 > 1/32) *)
  pose proof (hp_anti 8 bc ltac:(lia)) as Hh. change (hp 8) with (1 # 256) in Hh.
  destruct HH as [E|HH].
  - pose proof (certlo_lt15 lo HL). lra.
  - pose proof (cert_both lo hi HL HH). lra.
Qed.

Lemma inv0_last lo hi prev : Inv0 lo hi 19 prev -> CertLo lo /\ hi == 14 /\ 2 # 100 < prev /\ hi - lo <= 1.
Proof.
  intros (_ & H0 & Hle & H14 & Hw & HL & HH).
  (* 14/512 is already too narrow for [0, 14], for a certified hi above 0 and for two certificates *)
  pose proof (hp_anti 9 19 ltac:(lia)) as Hh. change (hp 9) with (1 # 512) in Hh.
  destruct HL as [E|HL]; destruct HH as [[E' Hp]|HH].
  - exfalso. lra.
  - exfalso. pose proof (certhi_gt1 hi HH). lra.
  - repeat split; [exact HL | exact E' | apply Hp; lia | lra].
  - exfalso. pose proof (cert_both lo hi HL HH). lra.
Qed.

(* after the one escape: at most 8 more evaluations (bc = 0 .. 7, by inv1_bc) *)
Lemma round1 : forall fuel lo hi bc prev vis, Inv1 lo hi bc -> (8 <= bc + fuel)%nat ->
  exists x tr, pi_loop f fuel lo hi bc 1 prev vis = (Some x, tr).
Proof.
  induction fuel as [|fuel IH]; intros lo hi bc prev vis HI Hfuel; pose proof (inv1_bc _ _ _ HI) as Hbc; [lia|].
  destruct HI as (_ & Hle & H15 & Hw & HL & HH).
  destruct (pi_step f lo hi bc 1 prev vis) as [(_ & ? & _)|(lo1 & hi1 & bc' & ec' & mid & Ha & Em & Hs)]; [lia|].
  destruct Ha as [(_ & -> & -> & -> & ->)|(-> & _)]; [|lia].
  destruct Hs as [[Hc E]|[[Hc E]|[_ E]]]; rewrite E.
  - apply IH; [|lia].
    repeat split; [lia | lra | lra | cbn [hp]; lra | exists mid; split; [lra | exact Hc] | exact HH].
  - apply IH; [|lia].
    repeat split; [lia | lra | lra | cbn [hp]; lra | exact HL | right; exists mid; split; [lra | exact Hc]].
  - eexists; eexists; reflexivity.
Qed.

(* 28 = 20 evaluations with errorcount = 0 (bc = 0 .. 19, the twentieth being the escape step, which evaluates
   too) + the 8 of round1 *)
Lemma round0 : forall fuel lo hi bc prev vis, Inv0 lo hi bc prev -> (28 <= bc + fuel)%nat ->
  exists x tr, pi_loop f fuel lo hi bc 0 prev vis = (Some x, tr).
Proof.
  induction fuel as [|fuel IH]; intros lo hi bc prev vis HI Hfuel; [destruct HI; lia|].
  destruct (pi_step f lo hi bc 0 prev vis) as [(_ & ? & _)|(lo1 & hi1 & bc' & ec' & mid & Ha & Em & Hs)]; [lia|].
  destruct Ha as [(Hne & -> & -> & -> & ->)|(-> & _ & -> & -> & Hp)].
  - destruct HI as (Hbc & H0 & Hle & H14 & Hw & HL & HH).
    destruct Hs as [[Hc E]|[[Hc E]|[_ E]]]; rewrite E.
    + apply IH; [|lia].
      repeat split; [lia | lra | lra | lra | cbn [hp]; lra | right; exists mid; split; [lra | exact Hc] |].
      destruct HH as [[E14 _]|HH]; [left; split; [exact E14 | intros _; exact Hc] | right; exact HH].
    + apply IH; [|lia].
      repeat split; [lia | lra | lra | lra | cbn [hp]; lra | exact HL | right; exists mid; split; [lra | exact Hc]].
    + eexists; eexists; reflexivity.
  - (* the escape step: the charge is still positive at 14, so the interval becomes [lo, 15] *)
    destruct (inv0_last _ _ _ HI) as (HL & E14 & Hprev & Hw1). destruct HI as (_ & H0 & Hle & _).
    destruct Hp as [(? & _)|(_ & -> & ->)]; [lra|].
    destruct Hs as [[Hc E]|[[Hc E]|[_ E]]]; rewrite E.
    + apply round1; [|lia].
      repeat split; [lia | lra | lra | cbn [hp]; lra | exists mid; split; [lra | exact Hc] | left; lra].
    + apply round1; [|lia].
      repeat split; [lia | lra | lra | cbn [hp]; lra | exact HL | right; exists mid; split; [lra | exact Hc]].
    + eexists; eexists; reflexivity.
Qed.

Lemma start_inv : Inv0 0 14 0 0.
Proof.
  repeat split; [lia | lra | lra | lra | cbn [hp]; lra | left; reflexivity | left; split; [reflexivity | intros H; lia]].
Qed.

Theorem bisect_total : exists x tr, isoelectric f = (Some x, tr).
Proof. unfold isoelectric. apply round0; [exact start_inv | lia]. Qed.

Theorem bisect_total_28 : exists x tr, isoelectric f = (Some x, tr) /\ (List.length tr <= 28)%nat.
Proof.
  (* run with fuel 28, which bounds the trace; the remaining 193 of the model's 221 change nothing *)
  destruct (round0 28 0 14 0 0 [] start_inv ltac:(lia)) as [x [tr H]].
  exists x, tr. split.
  - unfold isoelectric. change 221%nat with (28 + 193)%nat. apply pi_fuel_mono. exact H.
  - apply pi_evaluations_bounded in H. exact H.
Qed.
End Bisect.

(* the four conditions are satisfiable, and the escape clause is needed: root at pH 14.5 *)
Lemma oracle_example :
  let f := fun x : Q => ((29 # 2) - x) * (1 # 8) in
  ((forall x y, x <= y -> f y <= f x + (2 # 1000)) /\
   (forall x y, x <= y -> y - x <= 1 # 16 -> f x - f y <= (y - x) + (2 # 1000)) /\
   (forall x, x <= 1 -> - (11 # 1000) <= f x) /\ (forall x, 15 <= x -> f x <= 11 # 1000)) /\
  fst (isoelectric f) = Some (7602169 # 524288) /\ List.length (snd (isoelectric f)) = 20%nat.
Proof.
  cbv zeta. split; [|split; vm_compute; reflexivity].
  repeat split; intros; lra.
Qed.
