(* Proofs/Recode.v — Omega / kappa_X identities (C05, C06). *)
From Coq Require Import QArith List Ascii String Lia.
From LC Require Import Core.Residue Spec.Delta Model.Recode Proofs.Invariance.
Import ListNotations.
Local Open Scope Z_scope.

Theorem Omega_is_kappa_recoded s : Omega s = kappa (recode1 omega_group s).
Proof. reflexivity. Qed.

Theorem Omega_eq_kappaX_PEDKR s : Omega s = kappaX [Pro; Glu; Asp; Lys; Arg] None s.
Proof. reflexivity. Qed.

Lemma recode2_ED_KR s : recode2 [Glu; Asp] [Lys; Arg] s = pat s.
Proof. unfold recode2, pat. apply map_ext. intros a. destruct a; reflexivity. Qed.

Theorem kappa_eq_kappaX_ED_KR s : kappa (pat s) = kappaX [Glu; Asp] (Some [Lys; Arg]) s.
Proof. unfold kappaX. now rewrite recode2_ED_KR. Qed.

(* groups matter only as sets: order, repetition (and, through parse_group, case) are irrelevant *)
Theorem kappaX_members g1 g1' g2 g2' s :
  (forall r, mem_aa r g1 = mem_aa r g1') -> (forall r, mem_aa r g2 = mem_aa r g2') ->
  g2 <> [] -> g2' <> [] ->
  kappaX g1 (Some g2) s = kappaX g1' (Some g2') s /\ kappaX g1 None s = kappaX g1' None s.
Proof.
  intros H1 H2 N2 N2'. destruct g2 as [|x g2]; [contradiction|]. destruct g2' as [|x' g2']; [contradiction|].
  unfold kappaX, recode2, recode1. split; f_equal; apply map_ext; intros r; rewrite H1, ?H2; reflexivity.
Qed.

Lemma recode2_swap g1 g2 s : (forall r, mem_aa r g1 = true -> mem_aa r g2 = false) ->
  recode2 g2 g1 s = map Z.opp (recode2 g1 g2 s).
Proof.
  intros Hd. unfold recode2. rewrite map_map. apply map_ext. intros r.
  destruct (mem_aa r g1) eqn:E1; [rewrite (Hd r E1); reflexivity|].
  destruct (mem_aa r g2); reflexivity.
Qed.

Theorem kappaX_swap g1 g2 s : g1 <> [] -> g2 <> [] ->
  (forall r, mem_aa r g1 = true -> mem_aa r g2 = false) ->
  (kappaX g2 (Some g1) s == kappaX g1 (Some g2) s)%Q.
Proof.
  intros N1 N2 Hd. destruct g1 as [|x g1]; [contradiction|]. destruct g2 as [|y g2]; [contradiction|].
  unfold kappaX. rewrite (recode2_swap (x :: g1) (y :: g2) s Hd). apply kappa_inv.
Qed.

Lemma mem_complement g r : mem_aa r (complement g) = negb (mem_aa r g).
Proof.
  unfold complement. destruct (mem_aa r g) eqn:E; cbn [negb].
  - destruct (mem_aa r (filter _ all20)) eqn:F; [|reflexivity].
    apply mem_aa_In in F. apply filter_In in F. destruct F as [_ F]. rewrite E in F. discriminate.
  - apply mem_aa_In. apply filter_In. split; [apply all20_complete | rewrite E; reflexivity].
Qed.

Theorem kappaX_complement g s : (kappaX (complement g) None s == kappaX g None s)%Q.
Proof.
  unfold kappaX.
  assert (H : recode1 (complement g) s = map Z.opp (recode1 g s)).
  { unfold recode1. rewrite map_map. apply map_ext. intros r. rewrite mem_complement.
    destruct (mem_aa r g); reflexivity. }
  rewrite H. apply kappa_inv.
Qed.

Theorem Omega_seq_spec (s : list aa) i : (i < List.length s)%nat ->
  nth i (Omega_seq s) false = mem_aa (nth i s Ala) omega_group /\ List.length (Omega_seq s) = List.length s.
Proof.
  intros _. unfold Omega_seq. split; [|apply map_length].
  change false with ((fun r => mem_aa r omega_group) Ala). apply map_nth.
Qed.

(* Omega only sees membership in {P,E,D,K,R} *)
Theorem Omega_respell s t : map (fun r => mem_aa r omega_group) s = map (fun r => mem_aa r omega_group) t ->
  Omega s = Omega t.
Proof.
  intros H. unfold Omega, recode1. f_equal.
  rewrite <- (map_map (fun r => mem_aa r omega_group) (fun b : bool => if b then -1 else 1) s).
  rewrite <- (map_map (fun r => mem_aa r omega_group) (fun b : bool => if b then -1 else 1) t).
  now rewrite H.
Qed.

Lemma recode1_rev g s : recode1 g (rev s) = rev (recode1 g s).
Proof. unfold recode1. now rewrite map_rev. Qed.

Theorem Omega_rev s : (Omega (rev s) == Omega s)%Q.
Proof. unfold Omega. rewrite recode1_rev. apply kappa_rev. Qed.

(* exchanging positive and negative residues keeps every residue inside / outside {P,E,D,K,R} *)
Definition invert_res (a : aa) : aa :=
  match a with Lys => Glu | Arg => Asp | Glu => Lys | Asp => Arg | x => x end.

Theorem Omega_inv s : Omega (map invert_res s) = Omega s.
Proof.
  apply Omega_respell. rewrite map_map. apply map_ext. intros a. destruct a; reflexivity.
Qed.

Lemma pat_invert s : pat (map invert_res s) = map Z.opp (pat s).
Proof. unfold pat. rewrite !map_map. apply map_ext. intros a. destruct a; reflexivity. Qed.

(* lower-casing moves codes 65..90 up by 32 into 97..122, upper-casing moves those back; neither touches anything else *)
Lemma upper_lower c : upper_ascii (lower_ascii c) = upper_ascii c.
Proof.
  unfold lower_ascii, upper_ascii. cbv zeta. set (n := nat_of_ascii c).
  destruct (Nat.leb_spec 65 n), (Nat.leb_spec n 90); cbn [andb]; try reflexivity.
  rewrite nat_ascii_embedding by lia.
  rewrite (proj2 (Nat.leb_le 97 (n + 32))), (proj2 (Nat.leb_le (n + 32) 122)), (proj2 (Nat.leb_gt 97 n)) by lia.
  cbn [andb]. rewrite Nat.add_sub. apply ascii_nat_embedding.
Qed.

Lemma upper_upper c : upper_ascii (upper_ascii c) = upper_ascii c.
Proof.
  unfold upper_ascii. cbv zeta. destruct ((97 <=? nat_of_ascii c) && (nat_of_ascii c <=? 122))%nat eqn:E; [|now rewrite E].
  apply andb_prop in E. destruct E as [E1 E2]. apply Nat.leb_le in E1, E2. rewrite nat_ascii_embedding by lia.
  now destruct (Nat.leb_spec 97 (nat_of_ascii c - 32)); [lia|].
Qed.

Theorem parse_member_case c : parse_member (String (lower_ascii c) EmptyString) = parse_member (String c EmptyString)
                              /\ parse_member (String (upper_ascii c) EmptyString) = parse_member (String c EmptyString).
Proof.
  unfold parse_member. now rewrite upper_lower, upper_upper.
Qed.

Theorem parse_group_rejects l x : In x l -> parse_member x = None -> parse_group l = None.
Proof.
  induction l as [|y l IH]; intros Hin Hx; [destruct Hin|].
  cbn [parse_group]. destruct Hin as [->|Hin].
  - rewrite Hx. reflexivity.
  - rewrite (IH Hin Hx). destruct (parse_member y); reflexivity.
Qed.

Lemma parse_group_cons x g : parse_group (x :: g) <> Some [].
Proof. cbn [parse_group]. destruct (parse_member x); [|discriminate]. destruct (parse_group g); discriminate. Qed.

Theorem kappaX_api_rejects g1 g2 s x : In x g1 -> parse_member x = None -> kappaX_api g1 g2 s = None.
Proof. intros Hin Hx. unfold kappaX_api. now rewrite (parse_group_rejects g1 x Hin Hx). Qed.

Theorem kappaX_api_rejects2 g1 g2 s x : In x g2 -> parse_member x = None -> kappaX_api g1 (Some g2) s = None.
Proof.
  intros Hin Hx. unfold kappaX_api. destruct (parse_group g1); [|reflexivity].
  destruct g2 as [|y g2]; [destruct Hin|]. now rewrite (parse_group_rejects (y :: g2) x Hin Hx).
Qed.
