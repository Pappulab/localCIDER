(* Proofs/MovesFrame.v — C17: what block swap and charge clustering leave alone.  Besides being rearrangements
   (Proofs/Moves.v), these two moves keep every residue outside the index ranges they exchange; block swap puts
   exactly the other block's residues, in order, into each range. *)
From Coq Require Import List Lia.
From LC Require Import Core.Residue Model.Phospho Model.Moves Proofs.Phospho Proofs.Moves.
Import ListNotations.

Lemma memn_seq_false k a L : (k < a \/ a + L <= k)%nat -> memn k (seq a L) = false.
Proof. intros H. apply memn_false. rewrite in_seq. lia. Qed.

Theorem blockSwap_untouched o bs i1 i2 c k : blockSwap o bs i1 i2 = Some c ->
  (k < List.length (mseq o))%nat ->
  (k < i1 \/ i1 + (bs - 1) <= k)%nat -> (k < i2 + bs - 1 \/ i2 + bs - 1 + (bs - 1) <= k)%nat ->
  nth k (mseq c) Ala = nth k (mseq o) Ala.
Proof.
  intros H Hk H1 H2. destruct (blockSwap_Some _ _ _ _ _ H) as [_ ->].
  apply rearrange_fill2_fixed; [exact Hk | |]; apply memn_seq_false; assumption.
Qed.

Theorem clusterMove_untouched o st sz sw c k : clusterMove o st sz sw = Some c ->
  (k < List.length (mseq o))%nat -> (k < st \/ st + sz <= k)%nat -> ~ In k sw ->
  nth k (mseq c) Ala = nth k (mseq o) Ala.
Proof.
  intros H Hk H1 H2. destruct (clusterMove_Some _ _ _ _ _ H) as [_ ->].
  apply rearrange_fill2_fixed; [exact Hk | | apply memn_seq_false, H1].
  apply memn_false. now rewrite sort_nat_perm.
Qed.

Section Runs.
  Variables A B : list nat.
  Lemma fill2_neither_run ps1 : forall ps2 sa sb, (forall p, In p ps1 -> memn p A = false /\ memn p B = false) ->
    fill2 (ps1 ++ ps2) A B sa sb = ps1 ++ fill2 ps2 A B sa sb.
  Proof.
    induction ps1 as [|p ps IH]; intros ps2 sa sb H; [reflexivity|]. cbn [app fill2].
    destruct (H p (or_introl eq_refl)) as [-> ->]. f_equal. apply IH. intros q Hq. apply H. now right.
  Qed.
  Lemma fill2_A_run ps1 : forall sa ps2 sb, (forall p, In p ps1 -> memn p A = true) -> List.length sa = List.length ps1 ->
    fill2 (ps1 ++ ps2) A B sa sb = sa ++ fill2 ps2 A B [] sb.
  Proof.
    induction ps1 as [|p ps IH]; intros sa ps2 sb H Hl.
    - destruct sa; [reflexivity | discriminate].
    - destruct sa as [|x sa]; [discriminate|]. cbn [app fill2]. rewrite (H p (or_introl eq_refl)). f_equal.
      apply IH; [intros q Hq; apply H; now right | cbn in Hl; lia].
  Qed.
  Lemma fill2_B_run ps1 : forall sb ps2 sa, (forall p, In p ps1 -> memn p A = false /\ memn p B = true) ->
    List.length sb = List.length ps1 ->
    fill2 (ps1 ++ ps2) A B sa sb = sb ++ fill2 ps2 A B sa [].
  Proof.
    induction ps1 as [|p ps IH]; intros sb ps2 sa H Hl.
    - destruct sb; [reflexivity | discriminate].
    - destruct sb as [|x sb]; [discriminate|]. cbn [app fill2]. destruct (H p (or_introl eq_refl)) as [-> ->]. f_equal.
      apply IH; [intros q Hq; apply H; now right | cbn in Hl; lia].
  Qed.
  Lemma fill2_nil ps : fill2 ps A B [] [] = ps.
  Proof. induction ps as [|p ps IH]; [reflexivity|]. cbn [fill2]. rewrite IH. now destruct (memn p A), (memn p B). Qed.
End Runs.

Lemma memn_seq_true k a L : (a <= k < a + L)%nat -> memn k (seq a L) = true.
Proof. intros H. apply memn_In. apply in_seq. lia. Qed.

(* closed form of the index list of two exchanged disjoint runs a..a+L-1 and b..b+L-1 (a+L <= b, b+L <= n) *)
Lemma fill2_two_runs a L g r :
  let b := (a + L + g)%nat in
  fill2 (seq 0 (a + L + g + L + r)) (seq a L) (seq b L) (seq b L) (seq a L)
  = seq 0 a ++ seq b L ++ seq (a + L) g ++ seq a L ++ seq (b + L) r.
Proof.
  intros b.
  replace (a + L + g + L + r)%nat with (a + (L + (g + (L + r))))%nat by lia.
  rewrite (seq_app a), (seq_app L), (seq_app g), (seq_app L). cbn [plus].
  change (a + L + g)%nat with b.
  rewrite fill2_neither_run by (intros p Hp; apply in_seq in Hp; split; apply memn_seq_false; unfold b; lia).
  f_equal.
  rewrite fill2_A_run; [f_equal | intros p Hp; apply in_seq in Hp; apply memn_seq_true; lia | now rewrite !seq_length].
  rewrite fill2_neither_run by (intros p Hp; apply in_seq in Hp; split; apply memn_seq_false; unfold b; lia).
  f_equal.
  rewrite fill2_B_run; [f_equal; apply fill2_nil | | now rewrite !seq_length].
  intros p Hp. apply in_seq in Hp. split; [apply memn_seq_false | apply memn_seq_true]; unfold b; lia.
Qed.

(* block swap in closed form: the child's residues are the parent's read in the order
   [0,i1) ++ [j,j+L) ++ [i1+L,j) ++ [i1,i1+L) ++ [j+L,n), with L = bs-1 and j = i2+bs-1 *)
Theorem blockSwap_closed_form o bs i1 i2 c : blockSwap o bs i1 i2 = Some c ->
  let n := List.length (mseq o) in let L := (bs - 1)%nat in let j := (i2 + bs - 1)%nat in
  mseq c = rearrange Ala (mseq o)
             (seq 0 i1 ++ seq j L ++ seq (i1 + L) (j - (i1 + L)) ++ seq i1 L ++ seq (j + L) (n - (j + L))).
Proof.
  intros H n L j. destruct (blockSwap_Some _ _ _ _ _ H) as [(E1 & E2 & E3 & E4) ->]. cbn [rebuilt mseq]. f_equal.
  pose proof (fill2_two_runs i1 L (j - (i1 + L)) (n - (j + L))) as HF. cbn zeta in HF.
  replace (i1 + L + (j - (i1 + L)))%nat with j in HF by (unfold j, L; lia).
  replace (j + L + (n - (j + L)))%nat with n in HF by (unfold j, L; lia).
  exact HF.
Qed.
