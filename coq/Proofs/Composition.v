(* Proofs/Composition.v — identities and permutation invariance of composition parameters (C04). *)
From Coq Require Import Qabs List Lia Permutation.
From LC Require Import Core.Residue Core.Lists Core.QTools Spec.Delta Spec.Tables Model.Composition.
Import ListNotations.

Theorem meanT_perm t s s' : Permutation s s' -> meanT t s == meanT t s'.
Proof.
  intros H. unfold meanT, lenQ. rewrite (Permutation_length H).
  rewrite (sumQ_perm _ _ (Permutation_map t H)). reflexivity.
Qed.

Theorem molw_perm s s' : Permutation s s' -> molw s == molw s'.
Proof.
  intros H. unfold molw, lenQ. rewrite (Permutation_length H), (sumQ_perm _ _ (Permutation_map mw H)). reflexivity.
Qed.

Lemma meanT_plus f g s : meanT (fun a => f a + g a) s == meanT f s + meanT g s.
Proof. unfold meanT. rewrite sumQ_map_plus. unfold Qdiv. ring. Qed.

Lemma meanT_ext f g s : (forall a, f a == g a) -> meanT f s == meanT g s.
Proof. intros H. unfold meanT. rewrite (sumQ_map_ext f g s); [reflexivity | intros; apply H]. Qed.

Lemma meanT_scale f c s : meanT (fun a => c * f a) s == c * meanT f s.
Proof. unfold meanT. rewrite sumQ_map_scale. unfold Qdiv. ring. Qed.

Lemma lenQ_nonneg s : 0 <= lenQ s.
Proof. unfold lenQ, Qle. cbn. lia. Qed.

Lemma meanT_le f g s : (forall a, f a <= g a) -> meanT f s <= meanT g s.
Proof.
  intros H. unfold meanT. unfold Qdiv. apply Qmult_le_compat_r; [apply sumQ_map_le; exact H|].
  apply Qinv_le_0_compat, lenQ_nonneg.
Qed.

Lemma meanT_const c s : s <> [] -> meanT (fun _ => c) s == c.
Proof.
  intros H. unfold meanT.
  assert (Hs : sumQ (map (fun _ : aa => c) s) == c * lenQ s).
  { unfold lenQ. clear H. induction s as [|x s IH]; [cbn; ring|].
    cbn [map sumQ List.length]. rewrite IH, Nat2Z.inj_succ. unfold Z.succ. rewrite inject_Z_plus. ring. }
  rewrite Hs. field. apply inject_Z_nz. destruct s; [congruence | cbn [List.length]; lia].
Qed.

Theorem FCR_eq s : FCR s == fpos s + fneg s.
Proof.
  unfold FCR, fpos, fneg. rewrite <- meanT_plus. apply meanT_ext. intros a. destruct a; reflexivity.
Qed.

Theorem NCPR_eq s : NCPR s == fpos s - fneg s.
Proof.
  unfold NCPR, fpos, fneg.
  setoid_replace (meanT (fun a => ind (isposb (chg a))) s - meanT (fun a => ind (isnegb (chg a))) s)
    with (meanT (fun a => ind (isposb (chg a))) s + meanT (fun a => (-1) * ind (isnegb (chg a))) s)
    by (rewrite meanT_scale; ring).
  rewrite <- meanT_plus. apply meanT_ext. intros a. destruct a; reflexivity.
Qed.

Theorem abs_NCPR_le_FCR s : Qabs (NCPR s) <= FCR s.
Proof.
  apply Qabs_Qle_condition. split.
  - setoid_replace (- FCR s) with (meanT (fun a => (-1) * ind (isposb (chg a) || isnegb (chg a))) s)
      by (rewrite meanT_scale; unfold FCR; ring).
    apply meanT_le. intros a. destruct a; cbn; discriminate.
  - apply meanT_le. intros a. destruct a; cbn; discriminate.
Qed.

Theorem FCR_le_1 s : s <> [] -> FCR s <= 1.
Proof.
  intros H. rewrite <- (meanT_const 1 s H). apply meanT_le. intros a. destruct a; cbn; discriminate.
Qed.

Theorem FCR_nonneg s : 0 <= FCR s.
Proof.
  unfold FCR, meanT, Qdiv. apply Qmult_le_0_compat.
  - apply sumQ_nonneg. intros x Hx. apply in_map_iff in Hx. destruct Hx as [a [<- _]]. destruct a; cbn; discriminate.
  - apply Qinv_le_0_compat, lenQ_nonneg.
Qed.

Theorem counts_sum s : (countPos s + countNeg s + countNeut s = Z.of_nat (List.length s))%Z.
Proof. unfold countPos, countNeg, countNeut, nneut, len, pat. rewrite map_length. lia. Qed.

Lemma sum_ind_cnt (f : aa -> bool) s : sumQ (map (fun a => ind (f a)) s) == inject_Z (cnt f s).
Proof.
  induction s as [|x s IH]; [reflexivity|]. cbn [map sumQ cnt]. rewrite IH, inject_Z_plus.
  destruct (f x); reflexivity.
Qed.

Theorem fpos_is_count s : fpos s == inject_Z (countPos s) / lenQ s.
Proof.
  unfold fpos, meanT, countPos, npos, pat. rewrite cnt_map, sum_ind_cnt. reflexivity.
Qed.
Theorem fneg_is_count s : fneg s == inject_Z (countNeg s) / lenQ s.
Proof.
  unfold fneg, meanT, countNeg, nneg, pat. rewrite cnt_map, sum_ind_cnt. reflexivity.
Qed.

Lemma sum_swap (f : aa -> aa -> Q) rs s :
  sumQ (map (fun r => meanT (f r) s) rs) == meanT (fun a => sumQ (map (fun r => f r a) rs)) s.
Proof.
  induction rs as [|r rs IH]; cbn [map sumQ].
  - unfold meanT. rewrite sumQ_map_zero; [unfold Qdiv; ring | reflexivity].
  - rewrite IH, <- meanT_plus. reflexivity.
Qed.

Theorem fractions_sum_1 s : s <> [] -> sumQ (map (fun r => aafrac r s) all20) == 1.
Proof.
  intros H. unfold aafrac. rewrite (sum_swap (fun r a => ind (aa_eqb a r)) all20 s).
  rewrite <- (meanT_const 1 s H). apply meanT_ext. intros a. destruct a; reflexivity.
Qed.

Theorem uversky_eq s : uversky s == meanKD s / 9.
Proof.
  unfold uversky, meanKD, kd_uversky.
  setoid_replace (meanT kd_shifted s / 9) with ((1 # 9) * meanT kd_shifted s) by field.
  rewrite <- meanT_scale. apply meanT_ext. intros a. field.
Qed.

Theorem FER_eq s : FER s == FCR s + aafrac Pro s.
Proof.
  unfold FER, FCR, aafrac. rewrite <- meanT_plus. apply meanT_ext. intros a. destruct a; reflexivity.
Qed.

Theorem kd_shifted_range a : 0 <= kd_shifted a <= 9.
Proof. destruct a; vm_compute; split; discriminate. Qed.
