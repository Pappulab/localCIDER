(* Proofs/Alphabets.v — C12: laws of a valid reduction, acceptance of predefined sizes and of user alphabets. *)
From Coq Require Import String ZArith List.
From LC Require Import Core.Residue Core.Lists Spec.Alphabets Model.Alphabets.

Lemma valid_reduction_b_sound k f : valid_reduction_b k f = true -> valid_reduction k f.
Proof.
  unfold valid_reduction_b, valid_reduction. intros H r.
  rewrite forallb_forall in H. specialize (H r (all20_complete r)).
  destruct (group_of k r) as [g|]; [|discriminate].
  exists g. apply andb_prop in H. destruct H as [H1 H2].
  split; [reflexivity|]. split; [apply mem_aa_In; exact H1|].
  intros r' Hr'. rewrite forallb_forall in H2. apply aa_eqb_eq. apply H2. exact Hr'.
Qed.

Section Laws.
  Variable k : Z.
  Variable f : aa -> aa.
  Hypothesis Hf : valid_reduction k f.

  Lemma f_in_own_group r : exists g, group_of k r = Some g /\ In r g /\ In (f r) g.
  Proof.
    destruct (Hf r) as [g [Hg [Hin _]]]. exists g. split; [exact Hg|]. split; [|exact Hin].
    unfold group_of in Hg. apply find_some in Hg. apply mem_aa_In. tauto.
  Qed.

  Lemma reduce_length s : length (map f s) = length s.
  Proof. apply map_length. Qed.

  Lemma reduce_app s t : map f (s ++ t) = map f s ++ map f t.
  Proof. apply map_app. Qed.

  Lemma reduce_idem s : map f (map f s) = map f s.
  Proof. rewrite map_map. apply map_ext. intros a. destruct (Hf a) as [g [_ [Hin Hall]]]. apply Hall, Hin. Qed.

  Lemma reduce_pointwise s i d : (i < length s)%nat -> nth i (map f s) (f d) = f (nth i s d).
  Proof. intros _. apply map_nth. Qed.
End Laws.

Lemma memZ_In k l : memZ k l = true <-> In k l.
Proof. exact (existsb_eqb_In Z.eqb Z.eqb_eq k l). Qed.

Lemma predef_rejects_notin allowed f k s : ~ In k allowed -> reduce_predef allowed f k s = None.
Proof.
  intros H. unfold reduce_predef. destruct (memZ k allowed) eqn:E; [|reflexivity].
  apply memZ_In in E. contradiction.
Qed.

Lemma predef_accepts_in allowed f k s : In k allowed -> reduce_predef allowed f k s = Some (map (f k) s).
Proof. intros H. unfold reduce_predef. now rewrite (proj2 (memZ_In k allowed) H). Qed.

Lemma user_accept_iff u :
  user_accepted u = true <-> forall r, exists r', ulookup u r = Some r'.
Proof.
  unfold user_accepted. rewrite forallb_forall. split.
  - intros H r. specialize (H r (all20_complete r)).
    destruct (ulookup u r) as [y|]; [exists y; reflexivity | discriminate].
  - intros H r _. destruct (H r) as [y ->]. reflexivity.
Qed.

Lemma reduce_user_some u s out alph : reduce_user u s = Some (out, alph) ->
  user_accepted u = true /\ out = map (uapply u) s /\ alph = dedup (map (uapply u) all20).
Proof.
  unfold reduce_user. destruct (user_accepted u); [|discriminate].
  (* the closed alphabet is folded first: injection would evaluate it *)
  set (b := dedup _). intros [= <- <-]. repeat split.
Qed.

Lemma user_apply_is_map u s out alph :
  reduce_user u s = Some (out, alph) ->
  out = map (uapply u) s /\ length out = length s /\
  (forall r, ulookup u r = Some (uapply u r)).
Proof.
  intros H. destruct (reduce_user_some u s out alph H) as (Ha & -> & _).
  split; [reflexivity|]. split; [apply map_length|].
  intros r. destruct (proj1 (user_accept_iff u) Ha r) as [y Hy]. unfold uapply. now rewrite Hy.
Qed.

Lemma user_reject u s : user_accepted u = false -> reduce_user u s = None.
Proof. unfold reduce_user. intros ->. reflexivity. Qed.

Lemma user_alphabet_is_image u s out alph :
  reduce_user u s = Some (out, alph) ->
  NoDup alph /\ forall a, In a alph <-> exists r, uapply u r = a.
Proof.
  intros H. destruct (reduce_user_some u s out alph H) as (_ & _ & ->).
  destruct (dedup_spec aa_eqb dedup aa_eqb_eq eq_refl (fun _ _ => eq_refl) (map (uapply u) all20)) as [Hn Hi]. split; [exact Hn|].
  intros a. rewrite Hi, in_map_iff. split.
  - intros [r [Hr _]]. exists r. exact Hr.
  - intros [r Hr]. exists r. split; [exact Hr | apply all20_complete].
Qed.

Lemma C12_example : valid_reduction_b 2 (fun r => if mem_aa r (grp "EDNQKRH") then Glu else Leu) = true.
Proof. vm_compute. reflexivity. Qed.
