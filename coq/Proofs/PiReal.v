(* Proofs/PiReal.v — C09: get_isoelectric_point never raises.  Part 2 (over R): the normalised
   Henderson–Hasselbalch charge satisfies the four oracle conditions of Proofs/PiTotal.v, for every
   sequence, and so does every oracle within 1/1000 of it (the float evaluation of charge_at_pH). *)
From Coq Require Import Reals Lra Qabs Qreals List.
From LC Require Import Core.Lists Spec.Tables Model.Titration Proofs.Titration Proofs.PiTotal.
Local Open Scope R_scope.

Lemma p10_plus a b : p10 (a + b) = p10 a * p10 b.
Proof. unfold p10. rewrite Rmult_plus_distr_r. apply exp_plus. Qed.

Lemma p10_2 : p10 2 = 100.
Proof. unfold p10. replace (2 * ln 10) with (ln 10 + ln 10) by lra. rewrite exp_plus, exp_ln; lra. Qed.

Lemma p10_ge1 d : 0 <= d -> 1 <= p10 d.
Proof. intros H. rewrite <- exp_0, <- (Rmult_0_l (ln 10)). apply p10_mono, H. Qed.

Lemma exp3_ge10 : 10 <= exp 3.
Proof.
  pose proof (exp_ineq1_le (1 / 2)) as H.
  assert (E1 : exp 1 = exp (1 / 2) * exp (1 / 2)) by (rewrite <- exp_plus; f_equal; lra).
  assert (E3 : exp 3 = exp 1 * exp 1 * exp 1) by (rewrite <- !exp_plus; f_equal; lra).
  assert (9 / 4 <= exp 1) by (rewrite E1; nra).
  rewrite E3. assert (0 < exp 1) by apply exp_pos. nra.
Qed.

Lemma ln10_le3 : ln 10 <= 3.
Proof.
  rewrite <- (ln_exp 3). destruct (Req_dec 10 (exp 3)) as [->|Hne]; [lra|].
  left. apply ln_increasing; [lra|]. pose proof exp3_ge10. lra.
Qed.

Lemma p10_small d : 0 <= d <= 1 / 16 -> p10 d - 1 <= 4 * d.
Proof.
  intros [H0 H1]. unfold p10. set (z := d * ln 10).
  pose proof ln10_pos as Lp. pose proof ln10_le3 as L3.
  assert (Hz0 : 0 <= z) by (unfold z; nra).
  assert (Hz3 : z <= 3 * d) by (unfold z; nra).
  pose proof (exp_ineq1_le (- z)) as Hm.
  assert (HE : exp z * exp (- z) = 1) by (rewrite <- exp_plus; replace (z + - z) with 0 by lra; apply exp_0).
  pose proof (exp_pos z) as Ep. pose proof (exp_pos (- z)) as Emp.
  assert (Hb : exp z * (1 - z) <= 1) by nra.
  assert (Hz1 : 13 / 16 <= 1 - z) by lra.
  assert (Hc0 : exp z * (13 / 16) <= exp z * (1 - z)) by (apply Rmult_le_compat_l; lra).
  assert (Hc : exp z <= 16 / 13) by lra.
  assert (Hd : exp z * z <= 16 / 13 * z) by (apply Rmult_le_compat_r; assumption).
  lra.
Qed.

Lemma inv_diff_bound u t : 0 < u -> 1 <= t -> / (1 + u) - / (1 + u * t) <= (t - 1) / 4.
Proof.
  intros Hu Ht.
  assert (HA : 0 < 1 + u) by lra. assert (HB : 0 < 1 + u * t) by nra.
  replace (/ (1 + u) - / (1 + u * t)) with ((u * (t - 1)) / ((1 + u) * (1 + u * t))) by (field; lra).
  apply Rmult_le_reg_r with ((1 + u) * (1 + u * t)); [nra|].
  unfold Rdiv at 1. rewrite Rmult_assoc, Rinv_l by nra. rewrite Rmult_1_r.
  assert (Hut : u <= u * t) by (rewrite <- (Rmult_1_r u) at 1; apply Rmult_le_compat_l; lra).
  assert ((1 + u) * (1 + u) <= (1 + u) * (1 + u * t)) by (apply Rmult_le_compat_l; lra).
  assert (0 <= (1 - u) * (1 - u)) by (apply Rle_0_sqr).
  assert (4 * u <= (1 + u) * (1 + u)) by lra.
  assert (0 <= (t - 1) * ((1 + u) * (1 + u * t) - 4 * u)) by (apply Rmult_le_pos; lra).
  nra.
Qed.

Lemma frac_lip a b : a <= b -> / (1 + p10 a) - / (1 + p10 b) <= (p10 (b - a) - 1) / 4.
Proof.
  intros H. replace b with (a + (b - a)) at 1 by lra. rewrite p10_plus.
  apply inv_diff_bound; [apply p10_pos | apply p10_ge1; lra].
Qed.

Lemma posf_lip pK x y : x <= y -> posf pK x - posf pK y <= (p10 (y - x) - 1) / 4.
Proof. intros H. replace (y - x) with (y - pK - (x - pK)) by lra. apply frac_lip. lra. Qed.

Lemma negf_lip pK x y : x <= y -> negf pK y - negf pK x <= (p10 (y - x) - 1) / 4.
Proof. intros H. replace (y - x) with (pK - x - (pK - y)) by lra. apply frac_lip. lra. Qed.

Theorem net_lip ts x y : counts_nonneg ts -> x <= y ->
  net ts x - net ts y <= ntitR ts * ((p10 (y - x) - 1) / 4).
Proof.
  intros Hc Hxy. set (K := (p10 (y - x) - 1) / 4).
  enough (H : net ts x <= sumT (fun t => term_net t y + K * IZR (fst (fst t))) ts)
    by (rewrite sumT_plus, sumT_scale in H; unfold net, ntitR in *; lra).
  apply (sumT_le _ _ _ _ Hc). intros [[n pK] pos] Hn%IZR_le. cbn [fst term_net] in *.
  pose proof (posf_lip (Q2R pK) x y Hxy) as PL. pose proof (negf_lip (Q2R pK) x y Hxy) as NL. fold K in PL, NL.
  destruct pos; nra.
Qed.

(* pKa sanity of the table: acids >= 3, bases <= 13 *)
Definition pk_ok (ts : list (Z * Q * bool)) : Prop :=
  Forall (fun t : Z * Q * bool => if snd t then Q2R (snd (fst t)) <= 13 else 3 <= Q2R (snd (fst t))) ts.

(* two pH units on the uncharged side of its pKa a group keeps less than 1 % of its charge *)
Lemma frac_far a : 2 <= a -> / (1 + p10 a) <= / 101.
Proof. intros H. replace 101 with (1 + p10 2) by (rewrite p10_2; lra). apply frac_anti, H. Qed.

Theorem net_low ts x : counts_nonneg ts -> pk_ok ts -> x <= 1 -> - (ntitR ts / 101) <= net ts x.
Proof.
  intros Hc Hp Hx.
  enough (H : sumT (fun t => - / 101 * IZR (fst (fst t))) ts <= net ts x)
    by (rewrite sumT_scale in H; unfold ntitR; lra).
  apply (sumT_le _ _ _ _ (Forall_and Hc Hp)). intros [[n pK] pos] [Hn%IZR_le Hk]. cbn [fst snd term_net] in *.
  destruct pos; [pose proof (posf_range (Q2R pK) x); nra|].
  assert (negf (Q2R pK) x <= / 101) by (apply frac_far; lra). nra.
Qed.

Theorem net_high ts x : counts_nonneg ts -> pk_ok ts -> 15 <= x -> net ts x <= ntitR ts / 101.
Proof.
  intros Hc Hp Hx.
  enough (H : net ts x <= sumT (fun t => / 101 * IZR (fst (fst t))) ts)
    by (rewrite sumT_scale in H; unfold ntitR; lra).
  apply (sumT_le _ _ _ _ (Forall_and Hc Hp)). intros [[n pK] pos] [Hn%IZR_le Hk]. cbn [fst snd term_net] in *.
  destruct pos; [|pose proof (negf_range (Q2R pK) x); nra].
  assert (posf (Q2R pK) x <= / 101) by (apply frac_far; lra). nra.
Qed.

(* charge_at_pH(x, normalize=True): mean charge per titratable residue *)
Definition ncharge (ts : list (Z * Q * bool)) (x : R) : R := net ts x / ntitR ts.

Lemma Q2R_c a b : Q2R (a # b) = IZR a / IZR (Zpos b).
Proof. reflexivity. Qed.

Section Oracle.
Variable ts : list (Z * Q * bool).
Hypothesis Hc : counts_nonneg ts.
Hypothesis Hp : pk_ok ts.
Hypothesis Hn : 0 < ntitR ts.
(* the oracle the loop calls: any function within 1/1000 of the exact normalised charge *)
Variable f : Q -> Q.
Hypothesis Hf : forall q, Rabs (Q2R (f q) - ncharge ts (Q2R q)) <= 1 / 1000.

Lemma f_near q : ncharge ts (Q2R q) - 1 / 1000 <= Q2R (f q) <= ncharge ts (Q2R q) + 1 / 1000.
Proof.
  pose proof (Hf q) as H. unfold Rabs in H.
  destruct (Rcase_abs (Q2R (f q) - ncharge ts (Q2R q))); lra.
Qed.

Lemma net_ncharge x : net ts x = ntitR ts * ncharge ts x.
Proof. unfold ncharge. field. lra. Qed.

Lemma oracle_P1 x y : (x <= y)%Q -> (f y <= f x + (2 # 1000))%Q.
Proof.
  intros H. apply Rle_Qle. rewrite Q2R_plus, Q2R_c. apply Qle_Rle in H.
  pose proof (f_near x). pose proof (f_near y).
  pose proof (net_decreasing ts _ _ Hc H) as HD. rewrite !net_ncharge in HD.
  assert (ncharge ts (Q2R y) <= ncharge ts (Q2R x)) by nra. lra.
Qed.

Lemma oracle_P2 x y : (x <= y)%Q -> (y - x <= 1 # 16)%Q -> (f x - f y <= (y - x) + (2 # 1000))%Q.
Proof.
  intros H Hd. apply Rle_Qle. rewrite Q2R_plus, !Q2R_minus, Q2R_c. apply Qle_Rle in H. apply Qle_Rle in Hd.
  rewrite Q2R_minus, Q2R_c in Hd.
  pose proof (f_near x). pose proof (f_near y).
  pose proof (net_lip ts _ _ Hc H) as HL. rewrite !net_ncharge in HL.
  pose proof (p10_small (Q2R y - Q2R x) ltac:(lra)) as HS.
  assert (ncharge ts (Q2R x) - ncharge ts (Q2R y) <= Q2R y - Q2R x) by nra. lra.
Qed.

Lemma oracle_P3a x : (x <= 1)%Q -> (- (11 # 1000) <= f x)%Q.
Proof.
  intros H. apply Rle_Qle. rewrite Q2R_opp, Q2R_c. apply Qle_Rle in H. change (Q2R 1) with (1 / 1) in H.
  pose proof (f_near x). pose proof (net_low ts (Q2R x) Hc Hp ltac:(lra)) as HL. rewrite net_ncharge in HL.
  assert (- / 101 <= ncharge ts (Q2R x)) by nra. lra.
Qed.

Lemma oracle_P3b x : (15 <= x)%Q -> (f x <= 11 # 1000)%Q.
Proof.
  intros H. apply Rle_Qle. rewrite Q2R_c. apply Qle_Rle in H. change (Q2R 15) with (15 / 1) in H.
  pose proof (f_near x). pose proof (net_high ts (Q2R x) Hc Hp ltac:(lra)) as HL. rewrite net_ncharge in HL.
  assert (ncharge ts (Q2R x) <= / 101) by nra. lra.
Qed.

Theorem pi_total_oracle : exists x tr, isoelectric f = (Some x, tr) /\ (List.length tr <= 28)%nat.
Proof. apply bisect_total_28; [exact oracle_P1 | exact oracle_P2 | exact oracle_P3a | exact oracle_P3b]. Qed.
End Oracle.

Lemma titr_counts_nonneg s : counts_nonneg (titr_terms s).
Proof.
  unfold counts_nonneg, titr_terms. apply Forall_forall. intros t Ht. apply in_map_iff in Ht.
  destruct Ht as [rb [<- _]]. cbn [fst]. unfold count_res. apply cnt_nonneg.
Qed.

Lemma titr_pk_ok s : pk_ok (titr_terms s).
Proof.
  unfold pk_ok, titr_terms, titratable. cbn [map fst snd pka].
  repeat constructor; cbn [fst snd]; unfold Q2R; cbn; lra.
Qed.

Lemma ntitR_ntit s : ntitR (titr_terms s) = IZR (ntit s).
Proof.
  unfold ntitR, ntit. induction (titr_terms s) as [|t ts IH]; cbn [sumT map fold_right]; [reflexivity|].
  rewrite IH, plus_IZR. reflexivity.
Qed.

(* C09: for every sequence with a titratable residue and every evaluation of charge_at_pH accurate
   to 1/1000, the loop returns (no exception) *)
Theorem pi_never_raises s f : (0 < ntit s)%Z ->
  (forall q, Rabs (Q2R (f q) - ncharge (titr_terms s) (Q2R q)) <= 1 / 1000) ->
  exists x tr, isoelectric f = (Some x, tr) /\ (List.length tr <= 28)%nat.
Proof.
  intros Hpos Hf. apply (pi_total_oracle (titr_terms s)); [apply titr_counts_nonneg | apply titr_pk_ok | | exact Hf].
  rewrite ntitR_ntit. apply IZR_lt. exact Hpos.
Qed.

Lemma iso_within_threshold f x tr : isoelectric f = (Some x, tr) -> (Qabs (f x) <= 2 # 100)%Q.
Proof. unfold isoelectric. apply pi_returns_within_threshold. Qed.

(* ... and the pH returned neutralises the exact mean charge to within 0.021 *)
Theorem pi_result_neutral s f : (0 < ntit s)%Z ->
  (forall q, Rabs (Q2R (f q) - ncharge (titr_terms s) (Q2R q)) <= 1 / 1000) ->
  exists x tr, isoelectric f = (Some x, tr) /\ (Qabs (f x) <= 2 # 100)%Q /\
               Rabs (ncharge (titr_terms s) (Q2R x)) <= 21 / 1000.
Proof.
  intros Hpos Hf. destruct (pi_never_raises s f Hpos Hf) as [x [tr [H _]]].
  exists x, tr. split; [exact H|].
  pose proof (iso_within_threshold f x tr H) as Hq.
  split; [exact Hq|].
  apply Qabs_Qle_condition in Hq. destruct Hq as [Hq1%Qle_Rle Hq2%Qle_Rle].
  rewrite Q2R_opp in Hq1. change (Q2R (2 # 100)) with (2 / 100) in Hq1, Hq2.
  pose proof (f_near _ f Hf x). apply Rabs_le. lra.
Qed.
