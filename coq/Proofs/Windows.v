(* Proofs/Windows.v — placement, length, flanks and full-window identities of the profiles (C10). *)
From Coq Require Import QArith List Lia.
From LC Require Import Core.Residue Core.Lists Core.QTools Spec.Delta Model.Composition
     Model.Windows Proofs.Composition.
Import ListNotations.

Lemma half_sum_gen w : ((w - 1) / 2 + w / 2 = w - 1)%nat.
Proof.
  pose proof (Nat.div_mod w 2 ltac:(lia)). pose proof (Nat.mod_upper_bound w 2 ltac:(lia)).
  pose proof (Nat.div_mod (w - 1) 2 ltac:(lia)). pose proof (Nat.mod_upper_bound (w - 1) 2 ltac:(lia)).
  lia.
Qed.

Theorem flank_spec w N : (1 <= w <= N)%nat -> flanks w N = (((w - 1) / 2)%nat, (w / 2)%nat).
Proof.
  intros H. unfold flanks. pose proof (half_sum_gen w) as Hh.
  pose proof (Nat.div_mod w 2 ltac:(lia)) as Hw. pose proof (Nat.mod_upper_bound w 2 ltac:(lia)) as Hm.
  destruct (Nat.eqb_spec (2 * (w / 2) + (N + 1 - w)) N); f_equal; lia.
Qed.

Section Profile.
  Context {A : Type} (stat : list A -> Q) (w : nat) (l : list A).
  Hypothesis Hw : (1 <= w <= length l)%nat.

  Lemma profile_some :
    profile stat w l = Some (repeat 0%Q ((w - 1) / 2) ++ map stat (blobs w l) ++ repeat 0%Q (w / 2)).
  Proof.
    unfold profile. replace (length l <? w)%nat with false by (symmetry; apply Nat.ltb_ge; lia).
    replace (w =? 0)%nat with false by (symmetry; apply Nat.eqb_neq; lia). cbn [orb].
    rewrite flank_spec by exact Hw. reflexivity.
  Qed.

  Lemma profile_inv r :
    profile stat w l = Some r -> r = repeat 0%Q ((w - 1) / 2) ++ map stat (blobs w l) ++ repeat 0%Q (w / 2).
  Proof. rewrite profile_some. congruence. Qed.

  Theorem profile_length r : profile stat w l = Some r -> length r = length l.
  Proof.
    intros ->%profile_inv.
    rewrite !app_length, !repeat_length, map_length, blobs_length. pose proof (half_sum_gen w). lia.
  Qed.

  (* the statistic of the window starting at residue i (0-based) sits at index i + floor((w-1)/2) *)
  Theorem profile_nth r i : profile stat w l = Some r -> (i < length l + 1 - w)%nat ->
    nth (i + (w - 1) / 2) r 0%Q = stat (blob w i l).
  Proof.
    intros ->%profile_inv Hi.
    rewrite app_nth2 by (rewrite repeat_length; lia). rewrite repeat_length.
    replace (i + (w - 1) / 2 - (w - 1) / 2)%nat with i by lia.
    rewrite app_nth1 by (rewrite map_length, blobs_length; lia).
    rewrite nth_map with (d' := []) by (rewrite blobs_length; lia). f_equal. apply blobs_nth. exact Hi.
  Qed.

  Theorem profile_leading_zero r j : profile stat w l = Some r -> (j < (w - 1) / 2)%nat -> nth j r 0%Q = 0%Q.
  Proof.
    intros ->%profile_inv Hj.
    rewrite app_nth1 by (rewrite repeat_length; lia). apply nth_repeat.
  Qed.

  Theorem profile_trailing_zero r j : profile stat w l = Some r -> (length l - w / 2 <= j)%nat -> nth j r 0%Q = 0%Q.
  Proof.
    intros ->%profile_inv Hj. pose proof (half_sum_gen w).
    rewrite app_nth2 by (rewrite repeat_length; lia). rewrite repeat_length.
    rewrite app_nth2 by (rewrite map_length, blobs_length; lia). rewrite map_length, blobs_length.
    destruct (le_lt_dec (w / 2) (j - (w - 1) / 2 - (length l + 1 - w))) as [Hge|Hlt].
    - apply nth_overflow. rewrite repeat_length. exact Hge.
    - apply nth_repeat.
  Qed.
End Profile.

Theorem profile_rejects {A} (stat : list A -> Q) w (l : list A) : (length l < w)%nat -> profile stat w l = None.
Proof. intros H. unfold profile. replace (length l <? w)%nat with true by (symmetry; apply Nat.ltb_lt; exact H). reflexivity. Qed.

(* w = N: exactly one value, the statistic of the whole sequence *)
Theorem profile_full_window {A} (stat : list A -> Q) (l : list A) : l <> [] ->
  profile stat (length l) l =
  Some (repeat 0%Q ((length l - 1) / 2) ++ [stat l] ++ repeat 0%Q (length l / 2)).
Proof.
  intros Hne. assert (1 <= length l)%nat by (destruct l; [congruence | cbn [length]; lia]).
  rewrite profile_some, blobs_whole by lia. reflexivity.
Qed.

(* ... and that value is the whole-sequence parameter *)
Theorem full_window_NCPR s : ncpr_w (length s) (pat s) == NCPR s.
Proof.
  rewrite NCPR_eq, fpos_is_count, fneg_is_count. unfold ncpr_w, countPos, countNeg, wQ, lenQ, Zminus.
  rewrite inject_Z_plus, inject_Z_opp. unfold Qdiv. ring.
Qed.

Theorem full_window_FCR s : fcr_w (length s) (pat s) == FCR s.
Proof.
  rewrite FCR_eq, fpos_is_count, fneg_is_count. unfold fcr_w, countPos, countNeg, wQ, lenQ.
  rewrite inject_Z_plus. unfold Qdiv. ring.
Qed.

Theorem full_window_sigma s : sigma_w (length s) (pat s) = sigma (pat s).
Proof. unfold sigma_w, sigma, len, pat. now rewrite map_length. Qed.

Theorem full_window_hydropathy s : hydro_w (length s) s = uversky s.
Proof. reflexivity. Qed.

Theorem full_window_density g s : density_w g (length s) s = meanT (fun a => ind (mem_aa a g)) s.
Proof. reflexivity. Qed.

Lemma sigma_w_blob w b : length b = w -> sigma_w w b = sigma b.
Proof. intros H. unfold sigma_w, sigma, len. now rewrite H. Qed.

(* delta is the mean squared deviation of the (non-flank part of the) w = 5, 6 sigma profiles *)
Theorem deltaForm_from_sigma_profile w l :
  (deltaForm w l == sumQ (map (fun v => sqQ (sigma l - v)) (map (sigma_w w) (blobs w l)))
                    / inject_Z (len (blobs w l)))%Q.
Proof.
  unfold deltaForm. rewrite map_map.
  apply Qmult_comp; [|reflexivity]. apply sumQ_map_ext. intros b Hb.
  apply blobs_In in Hb. destruct Hb as [i [Hi ->]].
  rewrite sigma_w_blob by (apply blob_length; exact Hi). reflexivity.
Qed.
