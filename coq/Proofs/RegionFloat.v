(* Proofs/RegionFloat.v — the binary64 cascade agrees with the exact thresholds, including at the
   boundaries, for EVERY composition with N <= 200.  The bound is part of the statement.

   The cascade sees its four quotients k / N only through comparisons with 1/4 and 0.35, so it is
   enough that each such comparison is decided like the exact one for every numerator |k| <= N
   (40 400 pairs, kernel evaluation); the 1 373 700 triples then follow by the case analysis of
   the rational cascade. *)
From Coq Require Import ZArith List Bool Lia PrimFloat.
From LC Require Import Spec.Region Model.Region.
Local Open Scope Z_scope.

(* the float comparisons of m_regionF on the quotient q, against the exact ones on k / N *)
Definition cmp_ok (q : float) (k N : Z) : bool :=
  Bool.eqb (PrimFloat.ltb q 0x1.0000000000000p-2) (4 * k <? N) &&
  Bool.eqb (PrimFloat.leb 0x1.0000000000000p-2 q) (N <=? 4 * k) &&
  Bool.eqb (PrimFloat.leb q 0x1.6666666666666p-2) (20 * k <=? 7 * N) &&
  Bool.eqb (PrimFloat.ltb 0x1.6666666666666p-2 q) (7 * N <? 20 * k) &&
  Bool.eqb (PrimFloat.ltb (PrimFloat.abs q) 0x1.6666666666666p-2) (20 * Z.abs k <? 7 * N).

Lemma cmp_ok_spec q k N : cmp_ok q k N = true ->
  PrimFloat.ltb q 0x1.0000000000000p-2 = (4 * k <? N) /\
  PrimFloat.leb 0x1.0000000000000p-2 q = (N <=? 4 * k) /\
  PrimFloat.leb q 0x1.6666666666666p-2 = (20 * k <=? 7 * N) /\
  PrimFloat.ltb 0x1.6666666666666p-2 q = (7 * N <? 20 * k) /\
  PrimFloat.ltb (PrimFloat.abs q) 0x1.6666666666666p-2 = (20 * Z.abs k <? 7 * N).
Proof.
  unfold cmp_ok. intros H.
  apply andb_prop in H as [H H5]. apply andb_prop in H as [H H4].
  apply andb_prop in H as [H H3]. apply andb_prop in H as [H1 H2].
  repeat split; apply eqb_prop; assumption.
Qed.

(* the cascade reads fcr through the first four comparisons, ncpr through the last, f+ and f- through the fourth *)
Lemma m_regionF_spec fcr ncpr fplus fminus p n N :
  cmp_ok fcr (p + n) N = true -> cmp_ok ncpr (p - n) N = true ->
  cmp_ok fplus p N = true -> cmp_ok fminus n N = true ->
  p + n <= N ->
  m_regionF fcr ncpr fplus fminus = regionZ p n N.
Proof.
  intros (S1 & S2 & S3 & S4 & _)%cmp_ok_spec (_ & _ & _ & _ & D5)%cmp_ok_spec
         (_ & _ & _ & P4 & _)%cmp_ok_spec (_ & _ & _ & N4 & _)%cmp_ok_spec Hle.
  unfold m_regionF, regionZ. cbv zeta. rewrite S1, S2, S3, S4, D5, P4, N4.
  destruct (Z.ltb_spec (4 * (p + n)) N); [reflexivity|].
  destruct (Z.leb_spec N (4 * (p + n))); [|lia].
  destruct (Z.leb_spec (20 * (p + n)) (7 * N)); [reflexivity|].
  destruct (Z.ltb_spec (7 * N) (20 * (p + n))); [|lia].
  destruct (Z.ltb_spec (20 * Z.abs (p - n)) (7 * N)); [reflexivity|]. cbn [andb].
  destruct (Z.ltb_spec (7 * N) (20 * p)), (Z.ltb_spec (7 * N) (20 * n)), (Z.ltb_spec n p);
    try reflexivity; lia.
Qed.

Definition quot (k N : Z) : float := PrimFloat.div (fz k) (PrimFloat.add (fz N) 0).

(* P on k, k+1, ..., k+n-1.  The sweep counts in Z: a range built from a list of nat converts every index with
   Z.of_nat, work quadratic in the range for a checker that evaluates by need. *)
Fixpoint all_from (P : Z -> bool) (k : Z) (n : nat) : bool :=
  match n with O => true | S n' => P k && all_from P (k + 1) n' end.

Lemma all_from_spec P n : forall k, all_from P k n = true -> forall x, k <= x < k + Z.of_nat n -> P x = true.
Proof.
  induction n as [|n IH]; intros k H x Hx; [lia|]. cbn [all_from] in H. apply andb_prop in H as [Hk H].
  destruct (Z.eq_dec x k) as [->|Hne]; [exact Hk|]. apply (IH (k + 1) H). lia.
Qed.

Definition float_ok_N (N : Z) : bool := all_from (fun k => cmp_ok (quot k N) k N) (- N) (Z.to_nat (2 * N + 1)).

Lemma float_ok_upto_200 : all_from float_ok_N 1 200 = true.
Proof. vm_compute. reflexivity. Qed.

Theorem cascadeF_eq_spec_upto_200 p n N : 0 < N <= 200 -> 0 <= p -> 0 <= n -> p + n <= N ->
  regionF_counts p n N = regionZ p n N.
Proof.
  intros HN Hp Hn Hs. pose proof (all_from_spec _ _ _ float_ok_upto_200 N ltac:(lia)) as H.
  apply m_regionF_spec; try lia; apply (all_from_spec _ _ _ H); lia.
Qed.
