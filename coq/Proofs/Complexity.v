(* Proofs/Complexity.v — C11 (discrete part): window count, window contents, positions, LC/LZW range,
   WF counts (sum to the window length, permutation invariance, homopolymer), rejections. *)
From Coq Require Import QArith List Lia Permutation.
From LC Require Import Core.Residue Core.Lists Core.QTools Model.Complexity.
Import ListNotations.

Lemma nat_frac_range v m : (v <= m)%nat -> (0 <= Z.of_nat v # Pos.of_nat m <= 1)%Q.
Proof.
  intros H. unfold Qle. cbn [Qnum Qden]. rewrite Z.mul_1_r, Z.mul_1_l. split; [lia|].
  destruct m as [|m]; [cbn; lia|]. rewrite pos_of_nat_Z; lia.
Qed.

Theorem nwin_spec N w s : (w <= N)%nat -> nwin N w s = ((N - w) / s + 1)%nat.
Proof. intros H. unfold nwin. replace (N <? w)%nat with false by (symmetry; apply Nat.ltb_ge; exact H). reflexivity. Qed.

Theorem windows_count w s l : (w <= List.length l)%nat ->
  List.length (windows w s l) = ((List.length l - w) / s + 1)%nat.
Proof. intros H. unfold windows. rewrite map_length, seq_length. apply nwin_spec. exact H. Qed.

Theorem window_is_slice w s l i : (1 <= s)%nat -> (w <= List.length l)%nat -> (i < nwin (List.length l) w s)%nat ->
  List.length (window w s l i) = w /\ window w s l i = firstn w (skipn (i * s) l).
Proof.
  intros Hs Hw Hi. split; [|reflexivity]. rewrite nwin_spec in Hi by exact Hw.
  unfold window. rewrite firstn_length, skipn_length.
  assert (i * s <= List.length l - w)%nat.
  { assert (i <= (List.length l - w) / s)%nat by lia.
    eapply Nat.le_trans; [apply Nat.mul_le_mono_r; exact H|]. rewrite Nat.mul_comm. apply Nat.mul_div_le. lia. }
  lia.
Qed.

(* the j-th value is a function of the j-th window only (locality) *)
Theorem values_are_per_window {X} (F : list aa -> X) w s l j d : (j < nwin (List.length l) w s)%nat ->
  nth j (map F (windows w s l)) d = F (window w s l j).
Proof.
  intros Hj. unfold windows. rewrite map_map. apply (nth_map_seq (fun i => F (window w s l i))), Hj.
Qed.

Local Open Scope Z_scope.

Theorem positions_length N K : 0 <= K -> Z.of_nat (List.length (positions N K)) = K.
Proof. intros H. unfold positions. rewrite map_length, seq_length. lia. Qed.

Theorem positions_nth N K i : (i < Z.to_nat K)%nat ->
  nth i (positions N K) 0 =
  (let spacing := N / K in let r := N - spacing * K in
   (if r mod 2 =? 0 then r / 2 else (r - 1) / 2) + 1 + spacing / 2 + Z.of_nat i * spacing).
Proof.
  intros Hi. unfold positions. cbn zeta.
  set (st := _ + 1 + _). apply (nth_map_seq (fun i => st + Z.of_nat i * (N / K))), Hi.
Qed.

Theorem positions_in_range N K i : 1 <= K <= N -> (i < Z.to_nat K)%nat -> 1 <= nth i (positions N K) 0 <= N.
Proof.
  intros HK Hi. rewrite positions_nth by exact Hi. cbn zeta.
  set (s := N / K). set (r := N - s * K).
  assert (Hs : 1 <= s) by (unfold s; apply Z.div_le_lower_bound; lia).
  assert (Hr : 0 <= r < K) by (unfold r, s; pose proof (Z.div_mod N K ltac:(lia)); pose proof (Z.mod_pos_bound N K ltac:(lia)); lia).
  assert (Hf : 0 <= (if r mod 2 =? 0 then r / 2 else (r - 1) / 2) <= r).
  { destruct (r mod 2 =? 0) eqn:E; [apply Z.eqb_eq in E | apply Z.eqb_neq in E];
      pose proof (Z.div_mod r 2 ltac:(lia)); pose proof (Z.mod_pos_bound r 2 ltac:(lia));
      pose proof (Z.div_mod (r - 1) 2 ltac:(lia)); pose proof (Z.mod_pos_bound (r - 1) 2 ltac:(lia)); lia. }
  assert (Hh : 0 <= s / 2 /\ 1 + s / 2 <= s).
  { split; [apply Z.div_pos; lia|]. pose proof (Z.div_mod s 2 ltac:(lia)). pose proof (Z.mod_pos_bound s 2 ltac:(lia)). lia. }
  assert (Hi' : 0 <= Z.of_nat i <= K - 1) by lia.
  assert (0 <= Z.of_nat i * s) by nia.
  assert (Z.of_nat i * s <= (K - 1) * s) by nia.
  assert (N = s * K + r) by (unfold r; lia).
  split; nia.
Qed.

Theorem positions_strictly_increasing N K i : 1 <= K <= N -> (S i < Z.to_nat K)%nat ->
  nth i (positions N K) 0 < nth (S i) (positions N K) 0.
Proof.
  intros HK Hi. rewrite !positions_nth by lia. cbn zeta.
  assert (Hs : 1 <= N / K) by (apply Z.div_le_lower_bound; lia). nia.
Qed.

Theorem wf_counts_perm alphabet win win' : Permutation win win' -> wf_counts alphabet win = wf_counts alphabet win'.
Proof. intros H. unfold wf_counts. apply map_ext. intros x. apply cnt_perm. exact H. Qed.

Lemma sum_map_add {X} (f g : X -> Z) l :
  fold_right Z.add 0%Z (map (fun x => (f x + g x)%Z) l) = (fold_right Z.add 0 (map f l) + fold_right Z.add 0 (map g l))%Z.
Proof. induction l as [|x l IH]; [reflexivity|]. cbn [map fold_right]. rewrite IH. lia. Qed.

Lemma one_hit a al : NoDup al -> In a al -> fold_right Z.add 0%Z (map (fun x => if aa_eqb x a then 1 else 0)%Z al) = 1%Z.
Proof.
  induction 1 as [|x al Hx Hnd IH]; intros Ha; [destruct Ha|]. cbn [map fold_right]. destruct Ha as [->|Ha].
  - rewrite aa_eqb_refl.
    assert (Hz : fold_right Z.add 0%Z (map (fun x => if aa_eqb x a then 1 else 0)%Z al) = 0%Z).
    { clear IH Hnd. induction al as [|y al IHa]; [reflexivity|]. cbn [map fold_right].
      destruct (aa_eqb y a) eqn:E; [apply aa_eqb_eq in E; subst; exfalso; apply Hx; left; reflexivity|].
      rewrite IHa; [reflexivity | intros H; apply Hx; right; exact H]. }
    rewrite Hz. reflexivity.
  - destruct (aa_eqb x a) eqn:E; [apply aa_eqb_eq in E; subst; contradiction|]. rewrite (IH Ha). reflexivity.
Qed.

Lemma sumZ_counts alphabet : NoDup alphabet -> forall win, Forall (fun a => In a alphabet) win ->
  fold_right Z.add 0%Z (wf_counts alphabet win) = Z.of_nat (List.length win).
Proof.
  intros Hnd win. induction win as [|a win IH]; intros H.
  - unfold wf_counts. clear. induction alphabet as [|x al IHa]; [reflexivity|]. cbn [map fold_right]. rewrite IHa. reflexivity.
  - inversion H as [|? ? Ha Hw]; subst. specialize (IH Hw). unfold wf_counts in *.
    assert (E : map (fun x => count_aa x (a :: win)) alphabet =
                map (fun x => ((if aa_eqb x a then 1 else 0) + count_aa x win)%Z) alphabet) by (apply map_ext; reflexivity).
    rewrite E, sum_map_add, (one_hit a alphabet Hnd Ha), IH. cbn [List.length]. lia.
Qed.

Theorem wf_counts_homopolymer (x y : aa) n :
  count_aa y (repeat x n) = if aa_eqb y x then Z.of_nat n else 0%Z.
Proof. unfold count_aa. apply cnt_repeat. Qed.

Lemma laa_eqb2_eq a b : laa_eqb2 a b = true <-> a = b.
Proof. apply (list_eqb_eq aa_eqb); [apply aa_eqb_eq | intros [|] [|]; reflexivity]. Qed.

Lemma dedup_words_spec l : NoDup (dedup_words l) /\ forall x, In x (dedup_words l) <-> In x l.
Proof. exact (dedup_spec laa_eqb2 dedup_words laa_eqb2_eq eq_refl (fun _ _ => eq_refl) l). Qed.

Lemma dedup_words_incl l : incl (dedup_words l) l.
Proof. intros x. apply dedup_words_spec. Qed.

Lemma dedup_words_NoDup l : NoDup (dedup_words l).
Proof. apply dedup_words_spec. Qed.

Fixpoint all_words (alph : list aa) (n : nat) : list (list aa) :=
  match n with
  | O => [[]]
  | S n' => flat_map (fun a => map (cons a) (all_words alph n')) alph
  end.

Lemma flat_cons_length (al : list aa) (W : list (list aa)) :
  List.length (flat_map (fun a => map (cons a) W) al) = (List.length al * List.length W)%nat.
Proof. induction al as [|a al IH]; [reflexivity|]. cbn [flat_map List.length]. rewrite app_length, map_length, IH. lia. Qed.

Lemma all_words_length alph n : List.length (all_words alph n) = (List.length alph ^ n)%nat.
Proof. induction n as [|n IH]; [reflexivity|]. cbn [all_words Nat.pow]. now rewrite flat_cons_length, IH. Qed.

Lemma all_words_complete alph wd : Forall (fun a => In a alph) wd -> In wd (all_words alph (List.length wd)).
Proof.
  induction 1 as [|a wd Ha _ IH]; [left; reflexivity|]. cbn [List.length all_words].
  apply in_flat_map. exists a. split; [exact Ha|]. apply in_map. exact IH.
Qed.

Lemma distinct_words_bound alph ws (ws_list : list (list aa)) :
  NoDup ws_list -> (forall wd, In wd ws_list -> List.length wd = ws /\ Forall (fun a => In a alph) wd) ->
  (List.length ws_list <= List.length alph ^ ws)%nat.
Proof.
  intros Hnd H. rewrite <- all_words_length. apply NoDup_incl_length; [exact Hnd|].
  intros wd Hwd. destruct (H wd Hwd) as [<- Hf]. apply all_words_complete. exact Hf.
Qed.

Theorem lc_range alph w ws win : List.length win = w -> (1 <= ws)%nat -> Forall (fun a => In a alph) win ->
  (0 <= lc_value (List.length alph) w ws win <= 1)%Q.
Proof.
  intros Hw Hws Hal. unfold lc_value. apply nat_frac_range, Nat.min_glb.
  - apply distinct_words_bound; [apply dedup_words_NoDup|].
    intros wd Hwd. apply dedup_words_incl in Hwd. unfold lc_words in Hwd. apply in_map_iff in Hwd.
    destruct Hwd as [i [<- Hi]]. apply in_seq in Hi. split.
    + rewrite firstn_length, skipn_length. lia.
    + exact (incl_Forall (blob_incl ws i win) Hal).
  - eapply Nat.le_trans; [apply NoDup_incl_length; [apply dedup_words_NoDup | apply dedup_words_incl]|]. unfold lc_words. rewrite map_length, seq_length. lia.
Qed.

Lemma lzw_fold_bound win : forall dict wd,
  (List.length (fst (fold_left lzw_step win (dict, wd))) <= List.length dict + List.length win)%nat.
Proof.
  induction win as [|c win IH]; intros dict wd; cbn [fold_left List.length fst]; [lia|].
  unfold lzw_step at 2. destruct (existsb (laa_eqb2 (wd ++ [c])) dict).
  - eapply Nat.le_trans; [apply IH | lia].
  - eapply Nat.le_trans; [apply IH | cbn [List.length]; lia].
Qed.

Theorem lzw_range w win : List.length win = w -> (1 <= w)%nat -> (0 <= lzw_value w win <= 1)%Q.
Proof.
  intros Hw H1. unfold lzw_value. pose proof (lzw_fold_bound win [] []) as Hb.
  destruct (fold_left lzw_step win ([], [])) as [dict wd]. cbn [fst List.length] in Hb. rewrite Hw in Hb.
  apply nat_frac_range. exact Hb.
Qed.

Theorem rejects_unknown_type allowed f alph k ua w s ws l : complexity allowed f alph COther k ua w s ws l = None.
Proof. reflexivity. Qed.

Theorem rejects_long_window allowed f alph ct k ua w s ws l : (List.length l < w)%nat ->
  complexity allowed f alph ct k ua w s ws l = None.
Proof.
  intros H. unfold complexity. replace (List.length l <? w)%nat with true by (symmetry; apply Nat.ltb_lt; exact H).
  destruct ct; reflexivity.
Qed.
