(* Proofs/SCDReal.v — the real-valued SCD: pair-sum definition = coefficient form; the rational
   enclosure computed by Model.SCD.scd_bounds is sound (C07).  Uses the standard library's
   real-number axioms (reported by Print Assumptions). *)
From Coq Require Import Reals Lra QArith Qreals List Lia.
From LC Require Import Core.Lists Core.QTools Model.SCD Proofs.SCD.
Import ListNotations.
Local Open Scope R_scope.

(* sum_j l_j * sqrt (k + j) *)
Fixpoint wsumR (l : list Z) (k : nat) : R :=
  match l with [] => 0 | x :: l' => IZR x * sqrt (INR k) + wsumR l' (S k) end.

(* sum over pairs m > n of q_m q_n sqrt (m - n): the head pairs with every later residue *)
Fixpoint pairsumR (l : list Z) : R :=
  match l with [] => 0 | q :: l' => IZR q * wsumR l' 1 + pairsumR l' end.

Definition SCD_R (l : list Z) : R := pairsumR l / INR (length l).

Fixpoint csumR (cs : list Z) (d : nat) : R :=
  match cs with [] => 0 | c :: cs' => IZR c * sqrt (INR d) + csumR cs' (S d) end.

Definition coefsumR (l : list Z) : R := csumR (scd_coeffs l) 1.

Lemma csumR_app a : forall b d, csumR (a ++ b) d = csumR a d + csumR b (d + length a)%nat.
Proof.
  induction a as [|x a IH]; intros b d; cbn [app csumR length].
  - rewrite Nat.add_0_r. lra.
  - rewrite IH. replace (S d + length a)%nat with (d + S (length a))%nat by lia. lra.
Qed.

Lemma csumR_map_plus (g h : nat -> Z) : forall n a,
  csumR (map (fun d => (g d + h d)%Z) (seq a n)) a = csumR (map g (seq a n)) a + csumR (map h (seq a n)) a.
Proof.
  induction n as [|n IH]; intros a; cbn [seq map csumR]; [lra|].
  rewrite IH, plus_IZR. lra.
Qed.

Lemma csumR_head q l : forall a,
  csumR (map (fun d => (q * nth (d - a) l 0)%Z) (seq a (length l))) a = IZR q * wsumR l a.
Proof.
  induction l as [|x l IH]; intros a; cbn [length seq map csumR wsumR]; [lra|].
  rewrite Nat.sub_diag. change (nth 0 (x :: l) 0%Z) with x. rewrite mult_IZR.
  replace (map (fun d => (q * nth (d - a) (x :: l) 0)%Z) (seq (S a) (length l)))
    with (map (fun d => (q * nth (d - S a) l 0)%Z) (seq (S a) (length l))).
  - rewrite (IH (S a)). ring.
  - apply map_ext_in. intros d Hd. apply in_seq in Hd.
    replace (d - a)%nat with (S (d - S a)) by lia. reflexivity.
Qed.

Theorem pairsum_coeff_form l : pairsumR l = coefsumR l.
Proof.
  induction l as [|q l IH]; [reflexivity|].
  cbn [pairsumR]. unfold coefsumR, scd_coeffs. cbn [length].
  replace (S (length l) - 1)%nat with (length l) by lia.
  replace (map (coeff (q :: l)) (seq 1 (length l)))
    with (map (fun d => (q * nth (d - 1) l 0 + coeff l d)%Z) (seq 1 (length l))).
  2:{ apply map_ext_in. intros d Hd. apply in_seq in Hd. destruct d as [|d]; [lia|].
      rewrite coeff_cons. cbn [Nat.sub]. rewrite Nat.sub_0_r. reflexivity. }
  rewrite (csumR_map_plus (fun d => (q * nth (d - 1) l 0)%Z) (coeff l)).
  rewrite csumR_head. rewrite IH. unfold coefsumR, scd_coeffs.
  destruct (length l) as [|n] eqn:E; [cbn; lra|].
  replace (S n - 1)%nat with n by lia.
  rewrite seq_S, map_app, csumR_app. cbn [map csumR].
  replace (1 + n)%nat with (length l) by lia. rewrite coeff_full. lra.
Qed.

Theorem SCD_coeff_form l : SCD_R l = coefsumR l / INR (length l).
Proof. unfold SCD_R. now rewrite pairsum_coeff_form. Qed.

Lemma csumR_zero cs : Forall (fun c => c = 0%Z) cs -> forall d, csumR cs d = 0.
Proof. induction 1 as [|c cs Hc _ IH]; intros d; cbn [csumR]; [reflexivity|]. rewrite Hc, IH. lra. Qed.

Theorem SCD_few_charges l : (cnt nzb l <= 1)%Z -> SCD_R l = 0.
Proof.
  intros H. rewrite SCD_coeff_form. unfold coefsumR. rewrite (csumR_zero _ (scd_few_charges l H)).
  unfold Rdiv. lra.
Qed.

Lemma Q2R_inject_Z z : Q2R (inject_Z z) = IZR z.
Proof. unfold Q2R, inject_Z. cbn [Qnum Qden]. lra. Qed.

Lemma Q2R_Qred q : Q2R (Qred q) = Q2R q.
Proof. apply Qeq_eqR. apply Qred_correct. Qed.

Lemma sqrt_between a b x : 0 <= a -> 0 <= b -> a * a <= x <= b * b -> a <= sqrt x <= b.
Proof.
  intros Ha Hb [H1 H2]. rewrite <- (sqrt_square a Ha), <- (sqrt_square b Hb).
  split; apply sqrt_le_1_alt; assumption.
Qed.

Lemma sqrt_enclosure_gen S d : (0 < S)%Z -> (0 <= d)%Z ->
  IZR (Z.sqrt (d * S * S)) / IZR S <= sqrt (IZR d) <= IZR (Z.sqrt (d * S * S) + 1) / IZR S.
Proof.
  intros HS Hd. set (s := Z.sqrt (d * S * S)).
  destruct (Z.sqrt_spec (d * S * S)) as [Hlo Hhi]; [lia|]. fold s in Hlo, Hhi.
  apply IZR_le in Hlo. apply Z.lt_le_incl, IZR_le in Hhi. rewrite !mult_IZR, Rmult_assoc in Hlo, Hhi.
  apply IZR_lt in HS. apply IZR_le in Hd. pose proof (IZR_le _ _ (Z.sqrt_nonneg (d * S * S))) as Hs. fold s in Hs.
  (* s <= sqrt d * S <= s + 1  since s^2 <= d S^2 = (sqrt d * S)^2 <= (s + 1)^2 *)
  destruct (sqrt_between (IZR s) (IZR (Z.succ s)) (IZR d * (IZR S * IZR S))) as [H1 H2];
    [assumption | rewrite succ_IZR; lra | split; assumption |].
  rewrite sqrt_mult_alt, sqrt_square in H1, H2 by lra.
  split; apply Rmult_le_reg_r with (IZR S); try assumption;
    unfold Rdiv; rewrite Rmult_assoc, Rinv_l, Rmult_1_r by lra; assumption.
Qed.

(* Q2R (a # Z.to_pos sq_scale) is IZR a / IZR sq_scale by computation *)

Lemma enc_sound cs : forall d, (0 <= d)%Z ->
  Q2R (fst (enc cs d)) <= csumR cs (Z.to_nat d) <= Q2R (snd (enc cs d)).
Proof.
  induction cs as [|c cs IH]; intros d Hd; cbn [enc csumR].
  - unfold Q2R; cbn. lra.
  - specialize (IH (d + 1)%Z ltac:(lia)). destruct (enc cs (d + 1)) as [lo hi]. cbn [fst snd] in IH.
    replace (Z.to_nat (d + 1)) with (S (Z.to_nat d)) in IH by lia.
    pose proof (sqrt_enclosure_gen sq_scale d eq_refl Hd : Q2R (sqrt_lo d) <= sqrt (IZR d) <= Q2R (sqrt_hi d)) as [Hl Hh]. rewrite INR_IZR_INZ, Z2Nat.id by exact Hd.
    destruct (0 <=? c)%Z eqn:Ec; cbn [fst snd]; rewrite !Q2R_Qred, !Q2R_plus, !Q2R_mult, !Q2R_inject_Z.
    + apply Z.leb_le in Ec. apply IZR_le in Ec. split; nra.
    + apply Z.leb_gt in Ec. apply IZR_lt in Ec. split; nra.
Qed.

Theorem scd_bounds_sound l : l <> [] ->
  Q2R (fst (scd_bounds l)) <= SCD_R l <= Q2R (snd (scd_bounds l)).
Proof.
  intros Hne. rewrite SCD_coeff_form. unfold coefsumR, scd_bounds.
  pose proof (enc_sound (scd_coeffs l) 1 ltac:(lia)) as H.
  destruct (enc (scd_coeffs l) 1) as [lo hi]. cbn [fst snd] in *.
  change (Z.to_nat 1) with 1%nat in H.
  assert (Hl : (0 < length l)%nat) by (destruct l; [congruence | cbn [length]; lia]).
  rewrite !Q2R_div by (apply inject_Z_nz; lia). rewrite Q2R_inject_Z, <- INR_IZR_INZ.
  apply lt_0_INR in Hl.
  unfold Rdiv. split; apply Rmult_le_compat_r; try (left; apply Rinv_0_lt_compat; exact Hl); lra.
Qed.
