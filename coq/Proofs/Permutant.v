(* Proofs/Permutant.v — the delta-max permutant is a rearrangement of the parent with the
   candidate's charge pattern (C03), and the search returns a maximiser from the family. *)
From Coq Require Import QArith List Lia Permutation.
From LC Require Import Core.Residue Core.Lists Spec.Delta Model.Delta Proofs.Delta Proofs.DeltaMax.
Local Open Scope Z_scope.

Definition trit (q : Z) : Prop := q = 1 \/ q = -1 \/ q = 0.

Lemma len_succ_inv {A} (l : list A) k : 0 <= k -> 1 + k = len l -> exists x l', l = x :: l' /\ k = len l'.
Proof. intros Hk H. destruct l as [|x l']; unfold len in *; cbn [length] in *; [lia|]. exists x, l'. split; [reflexivity | lia]. Qed.

(* each class of the candidate is served from its own stack, which the counts make exactly long enough *)
Lemma refill_spec cand : forall ps ns zs,
  npos cand = len ps -> nneg cand = len ns -> cnt (fun z => z =? 0) cand = len zs -> Forall trit cand ->
  Permutation (refill cand ps ns zs) (ps ++ ns ++ zs) /\
  (Forall (fun a => chg a = 1) ps -> Forall (fun a => chg a = -1) ns -> Forall (fun a => chg a = 0) zs ->
   pat (refill cand ps ns zs) = cand).
Proof.
  unfold npos, nneg.
  induction cand as [|q cand IH]; intros ps ns zs Hp Hn Hz Ht.
  - destruct ps, ns, zs; try discriminate. split; [constructor | reflexivity].
  - inversion Ht as [|? ? Hq Ht']; subst. cbn [cnt refill] in *. unfold isposb, isnegb in *.
    destruct Hq as [-> | [-> | ->]]; cbn [Z.ltb Z.eqb Z.compare Z.add] in *.
    + destruct (len_succ_inv ps _ (cnt_nonneg _ cand) Hp) as [x [ps' [-> Hp']]].
      destruct (IH ps' ns zs Hp' Hn Hz Ht') as [IHperm IHpat]. split.
      * now constructor.
      * intros Fp Fn Fz. inversion Fp; subst. cbn [pat map]. f_equal; [assumption | now apply IHpat].
    + destruct (len_succ_inv ns _ (cnt_nonneg _ cand) Hn) as [x [ns' [-> Hn']]].
      destruct (IH ps ns' zs Hp Hn' Hz Ht') as [IHperm IHpat]. split.
      * eapply perm_trans; [|apply Permutation_middle]. now constructor.
      * intros Fp Fn Fz. inversion Fn; subst. cbn [pat map]. f_equal; [assumption | now apply IHpat].
    + destruct (len_succ_inv zs _ (cnt_nonneg _ cand) Hz) as [x [zs' [-> Hz']]].
      destruct (IH ps ns zs' Hp Hn Hz' Ht') as [IHperm IHpat]. split.
      * rewrite app_assoc. eapply perm_trans; [|apply Permutation_middle]. rewrite <- app_assoc. now constructor.
      * intros Fp Fn Fz. inversion Fz; subst. cbn [pat map]. f_equal; [assumption | now apply IHpat].
Qed.

Lemma three_way_partition (s : list aa) :
  Permutation s (filter (fun a => 0 <? chg a) s ++ filter (fun a => chg a <? 0) s ++ filter (fun a => chg a =? 0) s).
Proof.
  induction s as [|a s IH]; [constructor|]. cbn [filter].
  destruct (chg a); cbn [Z.ltb Z.eqb Z.compare app].
  - rewrite app_assoc. eapply perm_trans; [|apply Permutation_middle]. rewrite <- app_assoc. now constructor.
  - now constructor.
  - eapply perm_trans; [|apply Permutation_middle]. now constructor.
Qed.

Lemma chg_trit a : trit (chg a).
Proof. destruct a; unfold trit; auto. Qed.

Lemma filter_chg (f : Z -> bool) v : (forall q, trit q -> f q = true -> q = v) ->
  forall s, Forall (fun a => chg a = v) (filter (fun a => f (chg a)) s).
Proof. intros H s. apply Forall_forall. intros a Ha. apply filter_In in Ha. apply (H _ (chg_trit a)), Ha. Qed.

Lemma pat_counts s :
  npos (pat s) = len (filter (fun a => 0 <? chg a) s) /\
  nneg (pat s) = len (filter (fun a => chg a <? 0) s) /\
  cnt (fun z => z =? 0) (pat s) = len (filter (fun a => chg a =? 0) s).
Proof.
  unfold npos, nneg, pat, len. rewrite !cnt_map. rewrite <- !cnt_filter. repeat split.
Qed.

Lemma permutant_spec s cand : Forall trit cand -> comp cand = comp (pat s) ->
  Permutation (permutant s cand) s /\ pat (permutant s cand) = cand.
Proof.
  intros Ht Hc. unfold permutant.
  destruct (pat_counts s) as [Hp [Hn Hz]]. injection Hc as H1 H2 H3.
  unfold nneut in H3. rewrite <- !nneut_cnt in H3. rewrite <- H1 in Hp. rewrite <- H2 in Hn. rewrite <- H3 in Hz.
  destruct (refill_spec cand _ _ _ Hp Hn Hz Ht) as [Hperm Hpat]. split.
  - eapply perm_trans; [exact Hperm | symmetry; apply three_way_partition].
  - apply Hpat; [apply (filter_chg (fun q => 0 <? q)) | apply (filter_chg (fun q => q <? 0)) | apply (filter_chg (fun q => q =? 0))];
      intros q [-> | [-> | ->]]; (reflexivity || discriminate).
Qed.

Theorem permutant_perm s cand : Forall trit cand -> comp cand = comp (pat s) ->
  Permutation (permutant s cand) s.
Proof. intros Ht Hc. apply (permutant_spec s cand Ht Hc). Qed.

Theorem permutant_pat s cand : Forall trit cand -> comp cand = comp (pat s) ->
  pat (permutant s cand) = cand.
Proof. intros Ht Hc. apply (permutant_spec s cand Ht Hc). Qed.

Lemma trit_blk c k : trit c -> Forall trit (blk c k).
Proof. intros H. apply Forall_forall. intros x Hx. apply repeat_spec in Hx. now subst. Qed.

(* for a concatenation of blocks: the counts add up block by block, and every entry is a block's sign *)
Ltac blocks_solve :=
  split;
  [ unfold is_arr, npos, nneg, blk; repeat split; rewrite ?cnt_app, ?app_length, ?cnt_repeat, ?repeat_length;
    cbn [isposb isnegb Z.ltb Z.compare]; lia
  | repeat (apply Forall_app; split); apply trit_blk; unfold trit; auto ].

(* the documented family: arrangements of the composition, over 1, -1, 0 *)
Theorem cands_spec p n z l : In l (cands p n z) -> is_arr p n z l /\ Forall trit l.
Proof.
  unfold cands. destruct p as [|p'], n as [|n']; simpl (_ + _ =? 0)%nat; cbn [Nat.eqb orb]; [intros []| | |].
  - destruct (_ <? z)%nat; intros [pos [<- Hpos%in_seq]]%in_map_iff; blocks_solve.
  - destruct (_ <? z)%nat; intros [pos [<- Hpos%in_seq]]%in_map_iff; blocks_solve.
  - destruct (Nat.eqb_spec z 0) as [->|Ez].
    + destruct (_ <? _)%nat; intros [pos [<- Hpos%in_seq]]%in_map_iff; blocks_solve.
    + destruct (Nat.leb_spec 18 z) as [E18|E18];
        intros [a [Ha%in_seq [b [<- Hb%in_seq]]%in_map_iff]]%in_flat_map; blocks_solve.
Qed.

Theorem cands_arrangement p n z l : In l (cands p n z) -> is_arr p n z l.
Proof. intros H. apply (cands_spec p n z l H). Qed.

Lemma is_arr_comp p n z c l : natcomp l = (p, n, z) -> is_arr p n z c -> comp c = comp l.
Proof.
  intros Hl [H1 [H2 H3]]. destruct (natcomp_counts _ _ _ _ Hl) as [A [B C]].
  unfold comp, nneut, len. rewrite H1, H2, H3, A, B.
  f_equal. unfold nneut, len in C. lia.
Qed.

(* clause (ii) of C03: value and permutant returned together *)
Theorem deltaMax_with_seq s d c : m_dmax_arg (pat s) = (d, Some c) ->
  let t := permutant s c in
  Permutation t s /\ pat t = c /\ (delta (pat t) == d)%Q /\ (d == dmax_of (pat s))%Q.
Proof.
  intros H. cbn zeta.
  pose proof (m_dmax_spec (pat s)) as Hd. unfold m_dmax in Hd. rewrite H in Hd. cbn [fst] in Hd.
  unfold m_dmax_arg in H. destruct (natcomp (pat s)) as [[p n] z] eqn:Hc.
  destruct (p + n =? 0)%nat; [discriminate H|].
  rewrite m_search_fold in H.
  destruct (m_search_cases (cands p n z) ((-1)%Q, None)) as [E|[c0 [Hin E]]]; rewrite E in H; [discriminate H|].
  injection H as <- <-.
  pose proof (proj2 (cands_spec _ _ _ _ Hin)) as Ht.
  pose proof (is_arr_comp _ _ _ _ _ Hc (cands_arrangement _ _ _ _ Hin)) as Hcomp.
  destruct (permutant_spec s c0 Ht Hcomp) as [Hperm Hpat].
  repeat split; [exact Hperm | exact Hpat | rewrite Hpat; symmetry; apply m_delta_spec | exact Hd].
Qed.
