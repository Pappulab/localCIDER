(* Proofs/Phospho.v — C16: the recorded phosphosites are exactly the requested in-range S/T/Y
   positions since the last clear, first-set order, no repeats; derived values follow. *)
From Coq Require Import QArith ZArith List Bool Lia Arith Permutation Ascii.
From LC Require Import Core.Residue Core.Lists Core.MiniPy Core.MiniPyData Model.Phospho.
Import ListNotations.

Definition idx_of (z : Z) : nat := Z.to_nat (z - 1).

Definition addnew (acc xs : list nat) : list nat :=
  fold_left (fun acc x => if memn x acc then acc else acc ++ [x]) xs acc.

Lemma pseq_set_site o z : pseq (set_site o z) = pseq o.
Proof. unfold set_site. destruct (valid_site _ _); [|reflexivity]. destruct (memn _ _); reflexivity. Qed.

Lemma pseq_fold o req : pseq (fold_left set_site req o) = pseq o.
Proof. revert o. induction req as [|z req IH]; intros o; [reflexivity|]. cbn [fold_left]. rewrite IH. apply pseq_set_site. Qed.

Theorem seq_unchanged ops o : pseq (prun ops o) = pseq o.
Proof.
  revert o. induction ops as [|op ops IH]; intros o; [reflexivity|]. unfold prun in *. cbn [fold_left].
  rewrite IH. destruct op; [apply pseq_fold | reflexivity | reflexivity].
Qed.

Lemma psites_fold req : forall o,
  psites (fold_left set_site req o) = addnew (psites o) (map idx_of (filter (valid_site (pseq o)) req)).
Proof.
  induction req as [|z req IH]; intros o; [reflexivity|]. cbn [fold_left filter].
  rewrite IH, pseq_set_site. unfold set_site.
  destruct (valid_site (pseq o) z) eqn:E; [|reflexivity].
  cbn [map]. unfold addnew at 2. cbn [fold_left]. fold (idx_of z).
  destruct (memn (idx_of z) (psites o)); reflexivity.
Qed.

(* the requests that count: everything since the last clear *)
Definition since_clear (pre : list Z) (ops : list pop) : list Z :=
  fold_left (fun acc op => match op with PSet r => acc ++ r | PClear => [] | PQuery => acc end) ops pre.

Lemma addnew_app acc a b : addnew acc (a ++ b) = addnew (addnew acc a) b.
Proof. unfold addnew. apply fold_left_app. Qed.

Theorem sites_spec ops : forall o pre,
  psites o = addnew [] (map idx_of (filter (valid_site (pseq o)) pre)) ->
  psites (prun ops o) = addnew [] (map idx_of (filter (valid_site (pseq o)) (since_clear pre ops))).
Proof.
  induction ops as [|op ops IH]; intros o pre H; [exact H|].
  unfold prun, since_clear in *. cbn [fold_left]. destruct op as [req| |].
  - rewrite (IH (pstep o (PSet req)) (pre ++ req)); cbn [pstep]; rewrite pseq_fold; [reflexivity|].
    rewrite psites_fold, H, filter_app, map_app, addnew_app. reflexivity.
  - apply (IH {| pseq := pseq o; psites := [] |} []). reflexivity.
  - apply (IH o pre). exact H.
Qed.

Corollary sites_spec_fresh s ops :
  psites (prun ops {| pseq := s; psites := [] |}) = addnew [] (map idx_of (filter (valid_site s) (since_clear [] ops))).
Proof. apply (sites_spec ops {| pseq := s; psites := [] |} []). reflexivity. Qed.

Lemma memn_In i l : memn i l = true <-> In i l.
Proof. exact (existsb_eqb_In Nat.eqb Nat.eqb_eq i l). Qed.

Lemma memn_false i l : memn i l = false <-> ~ In i l.
Proof. rewrite <- memn_In. symmetry. apply not_true_iff_false. Qed.

Lemma addnew_nodup xs : forall acc, NoDup acc -> NoDup (addnew acc xs).
Proof.
  induction xs as [|x xs IH]; intros acc H; [exact H|]. cbn [addnew fold_left]. apply IH.
  destruct (memn x acc) eqn:E; [exact H|].
  apply NoDup_snoc; [exact H | apply memn_false, E].
Qed.

Lemma addnew_In xs : forall acc i, In i (addnew acc xs) <-> In i acc \/ In i xs.
Proof.
  induction xs as [|x xs IH]; intros acc i; cbn [addnew fold_left]; [cbn [In]; tauto|].
  fold (addnew (if memn x acc then acc else acc ++ [x]) xs). rewrite IH.
  destruct (memn x acc) eqn:E.
  - apply memn_In in E. cbn [In]. split; [tauto|]. intros [H|[<-|H]]; [left; exact H | left; exact E | right; exact H].
  - rewrite in_app_iff. cbn [In]. tauto.
Qed.

Theorem sites_nodup s ops : NoDup (psites (prun ops {| pseq := s; psites := [] |})).
Proof. rewrite sites_spec_fresh. apply addnew_nodup. constructor. Qed.

(* every recorded site is an in-range S/T/Y position that was requested since the last clear *)
Theorem sites_in_range_STY s ops i : In i (psites (prun ops {| pseq := s; psites := [] |})) ->
  (i < List.length s)%nat /\ (exists a, nth_error s i = Some a /\ sty a = true) /\
  In (Z.of_nat (S i)) (since_clear [] ops).
Proof.
  rewrite sites_spec_fresh, addnew_In. intros [[]|H]. apply in_map_iff in H. destruct H as [z [Hz Hin]].
  apply filter_In in Hin. destruct Hin as [Hin Hv]. unfold valid_site in Hv.
  apply andb_prop in Hv. destruct Hv as [Hr Hs]. apply andb_prop in Hr. destruct Hr as [H1 H2].
  apply Z.leb_le in H1. apply Z.leb_le in H2. unfold idx_of in *. subst i.
  split; [lia|]. split.
  - destruct (nth_error s (Z.to_nat (z - 1))) as [a|]; [|discriminate]. exists a. split; [reflexivity | exact Hs].
  - replace (Z.of_nat (S (Z.to_nat (z - 1)))) with z by lia. exact Hin.
Qed.

(* conversely every requested valid position is recorded *)
Theorem requested_valid_recorded s ops z : In z (since_clear [] ops) -> valid_site s z = true ->
  In (idx_of z) (psites (prun ops {| pseq := s; psites := [] |})).
Proof.
  intros Hin Hv. rewrite sites_spec_fresh, addnew_In. right. apply in_map. apply filter_In. split; assumption.
Qed.

(* get_phosphosequence: E at exactly the recorded positions *)
Lemma subst_at_nth s idxs i :
  nth_error (subst_at s idxs) i = option_map (fun a => if memn i idxs then Glu else a) (nth_error s i).
Proof. exact (nth_error_combine_seq (fun j a => if memn j idxs then Glu else a) s 0 i). Qed.

Lemma subst_at_length s idxs : List.length (subst_at s idxs) = List.length s.
Proof. unfold subst_at. rewrite map_length, combine_length, seq_length. lia. Qed.

Theorem phosphoseq_spec o i :
  nth_error (phosphoseq o) i = option_map (fun a => if memn i (psites o) then Glu else a) (nth_error (pseq o) i).
Proof. apply subst_at_nth. Qed.

Theorem phosphoseq_length o : List.length (phosphoseq o) = List.length (pseq o).
Proof. apply subst_at_length. Qed.

Theorem phosphoseq_no_sites s : subst_at s [] = s.
Proof. apply nth_error_ext. intros i. rewrite subst_at_nth. destruct (nth_error s i); reflexivity. Qed.

Lemma subst_at_snoc s idxs i : (i < List.length s)%nat -> set_nth (subst_at s idxs) i Glu = subst_at s (idxs ++ [i]).
Proof.
  intros Hi. apply nth_error_ext. intros k. rewrite nth_error_set_nth, !subst_at_nth by (rewrite subst_at_length; exact Hi).
  unfold memn. rewrite existsb_app. cbn [existsb]. rewrite orb_false_r.
  destruct (Nat.eqb_spec k i) as [->|_]; [|rewrite orb_false_r; reflexivity].
  rewrite orb_true_r. destruct (nth_error s i) eqn:E; [reflexivity|]. apply nth_error_None in E. lia.
Qed.

(* the character list of the sequence with E at the positions [done], as the translated code holds it *)
Definition marked (s : list aa) (done : list nat) : list MiniPy.value := map (fun a => kv a) (subst_at s done).

Lemma list_set_marked s done i : (i < List.length s)%nat ->
  MiniPy.list_set (marked s done) (Z.of_nat i) (MiniPy.VStr ["E"%char]) = Some (marked s (done ++ [i])).
Proof.
  intros Hi. unfold marked. rewrite list_set_nat by (rewrite map_length, subst_at_length; exact Hi).
  rewrite <- subst_at_snoc by exact Hi. unfold set_nth. rewrite map_app, firstn_map, skipn_map. reflexivity.
Qed.

Lemma marked_chars s done : marked s done = chars_val (map aa_char (subst_at s done)).
Proof. unfold marked. rewrite map_map. reflexivity. Qed.

(* the distribution enumerates all 2^k on/off assignments in binary counting order *)
Theorem bitsets_length k : List.length (bitsets k) = (2 ^ k)%nat.
Proof. induction k as [|k IH]; [reflexivity|]. cbn [bitsets]. rewrite app_length, !map_length, IH. cbn [Nat.pow]. lia. Qed.

Theorem bitsets_nth k : forall j, (j < 2 ^ k)%nat -> nth j (bitsets k) [] = bits_msb k j.
Proof.
  induction k as [|k IH]; intros j Hj.
  - cbn in Hj. assert (j = 0)%nat by lia. subst. reflexivity.
  - cbn [bitsets bits_msb]. cbn [Nat.pow] in Hj.
    assert (Hp : (0 < 2 ^ k)%nat) by (apply Nat.neq_0_lt_0; apply Nat.pow_nonzero; lia).
    destruct (2 ^ k <=? j)%nat eqn:E.
    + apply Nat.leb_le in E.
      rewrite app_nth2 by (rewrite map_length, bitsets_length; lia). rewrite map_length, bitsets_length.
      rewrite nth_map with (d' := []) by (rewrite bitsets_length; lia). f_equal.
      rewrite IH by lia. f_equal.
      rewrite <- (Nat.mod_small (j - 2 ^ k) (2 ^ k)) by lia.
      replace j with (j - 2 ^ k + 1 * 2 ^ k)%nat at 2 by lia. now rewrite Nat.mod_add by lia.
    + apply Nat.leb_gt in E.
      rewrite app_nth1 by (rewrite map_length, bitsets_length; lia).
      rewrite nth_map with (d' := []) by (rewrite bitsets_length; lia). f_equal.
      rewrite IH by lia. now rewrite Nat.mod_small by lia.
Qed.

Theorem states_length o : List.length (states o) = (2 ^ List.length (psites o))%nat.
Proof. unfold states. now rewrite map_length, bitsets_length. Qed.

Theorem states_nth o j : (j < 2 ^ List.length (psites o))%nat ->
  nth j (states o) ([], []) =
  (bits_msb (List.length (psites o)) j,
   subst_at (pseq o) (chosen (psites o) (bits_msb (List.length (psites o)) j))).
Proof.
  intros Hj. unfold states.
  rewrite nth_map with (d' := []) by (rewrite bitsets_length; exact Hj). now rewrite bitsets_nth.
Qed.
