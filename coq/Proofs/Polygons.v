(* Proofs/Polygons.v — C19: a sequence's marker (f+, f-) lies inside the drawn region whose number
   get_phasePlotRegion assigns to it; the polygons cover the simplex; interiors classify. *)
From Coq Require Import Qabs List Lqa Lia.
From LC Require Import Core.QTools Spec.Polygons Model.Region.

(* the cascade on fractions, as phasePlotRegion evaluates it *)
Definition regionFrac (fp fn : Q) : Z := m_regionQ (fp + fn) (fp - fn) fp fn.

(* the cascade as linear constraints on (fp, fn); the last case collects the two codes on which the source
   raises, and cannot occur for 0 <= fp, fn *)
Lemma regionFrac_cases fp fn :
  let r := regionFrac fp fn in
  (r = 1%Z /\ fp + fn < 1#4) \/ (r = 2%Z /\ 1#4 <= fp + fn <= 7#20) \/
  (r = 3%Z /\ 7#20 < fp + fn /\ fp - fn < 7#20 /\ fn - fp < 7#20) \/
  (r = 4%Z /\ 7#20 < fp + fn /\ fp <= 7#20 /\ 7#20 < fn /\ (7#20 <= fp - fn \/ 7#20 <= fn - fp)) \/
  (r = 5%Z /\ 7#20 < fp + fn /\ 7#20 < fp /\ fn <= 7#20 /\ (7#20 <= fp - fn \/ 7#20 <= fn - fp)) \/
  ((r = (-1)%Z \/ r = (-2)%Z) /\ (7#20 < fp /\ 7#20 < fn \/ fp <= 7#20 /\ fn <= 7#20) /\ 7#20 < fp + fn /\ (7#20 <= fp - fn \/ 7#20 <= fn - fp)).
Proof.
  cbv zeta. unfold regionFrac, m_regionQ. cbv zeta.
  destruct (Qle_bool_spec (1#4) (fp + fn)) as [H1|H1]; cbn [negb andb]; [|tauto].
  destruct (Qle_bool_spec (fp + fn) (7#20)) as [H2|H2]; cbn [negb andb]; [tauto|].
  destruct (Qle_bool_spec (7#20) (Qabs (fp - fn))) as [H3|H3]; cbn [negb].
  2:{ apply Qabs_Qlt_condition in H3. right; right; left. repeat split; try assumption; lra. }
  assert (H3' : 7#20 <= fp - fn \/ 7#20 <= fn - fp).
  { revert H3. apply Qabs_case; intros; [left|right]; lra. }
  destruct (Qle_bool_spec fp (7#20)), (Qle_bool_spec fn (7#20)); cbn [negb]; tauto.
Qed.

(* each edge condition of a concrete polygon is a linear inequality in the point *)
Ltac edge_cases H :=
  cbn [edges edges_from poly Z.eqb Pos.eqb] in H;
  repeat (destruct H as [H|H]; [subst; cbn [fst snd]; unfold cross; cbn [fst snd]; lra|]); try destruct H.

Theorem marker_in_own_region fp fn : 0 <= fp -> 0 <= fn -> fp + fn <= 1 ->
  inside (poly (regionFrac fp fn)) (fp, fn) /\ (1 <= regionFrac fp fn <= 5)%Z.
Proof.
  intros Hp Hn Hs.
  destruct (regionFrac_cases fp fn) as [[-> H]|[[-> H]|[[-> H]|[[-> H]|[[-> H]|[_ H]]]]]].
  6: exfalso; lra.
  all: split; [intros e He; edge_cases He | lia].
Qed.

(* strictly inside a drawn polygon => that is the region assigned (boundaries are shared) *)
Theorem interior_classifies r fp fn : (1 <= r <= 5)%Z -> inside_strict (poly r) (fp, fn) -> regionFrac fp fn = r.
Proof.
  intros Hr Hin. apply Forall_forall in Hin.
  assert (Er : r = 1%Z \/ r = 2%Z \/ r = 3%Z \/ r = 4%Z \/ r = 5%Z) by lia.
  destruct Er as [->|[->|[->|[->| ->]]]]; cbn [poly Z.eqb Pos.eqb edges edges_from] in Hin.
  all: repeat (apply Forall_cons_iff in Hin; destruct Hin as [? Hin]); unfold cross in *; cbn [fst snd] in *.
  all: destruct (regionFrac_cases fp fn) as [[-> K]|[[-> K]|[[-> K]|[[-> K]|[[-> K]|[_ K]]]]]]; try reflexivity; exfalso; lra.
Qed.
