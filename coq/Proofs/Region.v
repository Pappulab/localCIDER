(* Proofs/Region.v — the rational cascade equals the threshold specification for every composition
   (no bound on N), hence never reaches a raising branch; the specification is total, and regions
   4/5 go by strict majority (C08). *)
From Coq Require Import Qabs Lia String.
From LC Require Import Spec.Region Model.Region.
Local Open Scope Z_scope.

Theorem cascadeQ_eq_spec p n N : 0 < N -> 0 <= p -> 0 <= n -> p + n <= N ->
  regionQ_counts p n N = regionZ p n N.
Proof.
  intros HN Hp Hn Hs. unfold regionQ_counts, m_regionQ, regionZ. cbn zeta.
  unfold Qle_bool, Qabs. cbn [Qnum Qden]. rewrite Z2Pos.id by exact HN.
  destruct (Z.leb_spec (1 * N) ((p + n) * 4)); destruct (Z.ltb_spec (4 * (p + n)) N); cbn [negb andb]; try lia; try reflexivity.
  destruct (Z.leb_spec ((p + n) * 20) (7 * N)); destruct (Z.leb_spec (20 * (p + n)) (7 * N)); cbn [negb andb]; try lia; try reflexivity.
  destruct (Z.leb_spec (7 * N) (Z.abs (p - n) * 20)); destruct (Z.ltb_spec (20 * Z.abs (p - n)) (7 * N)); cbn [negb andb]; try lia; try reflexivity.
  destruct (Z.leb_spec (p * 20) (7 * N)); destruct (Z.leb_spec (n * 20) (7 * N)); destruct (Z.ltb_spec n p);
    cbn [negb]; try lia; try reflexivity.
Qed.

Theorem region_total p n N : 1 <= regionZ p n N <= 5.
Proof.
  unfold regionZ. destruct (_ <? _); [lia|]. destruct (_ <=? _); [lia|]. destruct (_ <? _); [lia|].
  destruct (_ <? _); lia.
Qed.

Corollary region_no_raise p n N : 0 < N -> 0 <= p -> 0 <= n -> p + n <= N ->
  1 <= regionQ_counts p n N <= 5.
Proof. intros. rewrite cascadeQ_eq_spec by assumption. apply region_total. Qed.

(* in regions 4/5 one charge strictly outnumbers the other *)
Theorem region_45_strict p n N : 0 < N -> 0 <= p -> 0 <= n ->
  (regionZ p n N = 5 -> n < p) /\ (regionZ p n N = 4 -> p < n).
Proof.
  intros HN Hp Hn. unfold regionZ.
  destruct (Z.ltb_spec (4 * (p + n)) N); [split; discriminate|].
  destruct (Z.leb_spec (20 * (p + n)) (7 * N)); [split; discriminate|].
  destruct (Z.ltb_spec (20 * Z.abs (p - n)) (7 * N)); [split; discriminate|].
  destruct (Z.ltb_spec n p); split; intros; try discriminate; lia.
Qed.

Theorem annotation_total r : 1 <= r <= 5 -> annotation r <> "ERROR, NOT A REAL REGION"%string.
Proof.
  intros H. assert (E : r = 1 \/ r = 2 \/ r = 3 \/ r = 4 \/ r = 5) by lia.
  destruct E as [E|[E|[E|[E|E]]]]; subst r; discriminate.
Qed.
