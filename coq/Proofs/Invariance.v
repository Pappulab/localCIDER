(* Proofs/Invariance.v — reversal and charge-inversion invariance of delta, delta-max, kappa (C05). *)
From Coq Require Import QArith List Lia.
From LC Require Import Core.Residue Core.Lists Core.QTools Spec.Delta Proofs.DeltaMax.
Local Open Scope Z_scope.

Lemma npos_opp l : npos (map Z.opp l) = nneg l.
Proof. unfold npos, nneg. rewrite cnt_map. apply cnt_ext. intros x. unfold isposb, isnegb. lia. Qed.
Lemma nneg_opp l : nneg (map Z.opp l) = npos l.
Proof. unfold npos, nneg. rewrite cnt_map. apply cnt_ext. intros x. unfold isposb, isnegb. lia. Qed.

Lemma sigma_c_swap p n N : sigma_c n p N = sigma_c p n N.
Proof.
  unfold sigma_c. rewrite (Z.add_comm n p).
  replace ((n - p) * (n - p)) with ((p - n) * (p - n)) by ring. reflexivity.
Qed.

Lemma sigma_opp l : sigma (map Z.opp l) = sigma l.
Proof. unfold sigma, len. rewrite npos_opp, nneg_opp, map_length. apply sigma_c_swap. Qed.

Lemma sigma_rev l : sigma (rev l) = sigma l.
Proof. unfold sigma, npos, nneg, len. now rewrite !cnt_rev, rev_length. Qed.

Lemma deltaForm_opp w l : deltaForm w (map Z.opp l) = deltaForm w l.
Proof.
  unfold deltaForm. rewrite blobs_map, map_map, sigma_opp. unfold len. rewrite map_length.
  f_equal. f_equal. apply map_ext. intros b. now rewrite sigma_opp.
Qed.

Theorem delta_inv l : delta (map Z.opp l) = delta l.
Proof. unfold delta. now rewrite !deltaForm_opp. Qed.

Lemma deltaForm_rev w l : (0 < w)%nat -> (deltaForm w (rev l) == deltaForm w l)%Q.
Proof.
  intros Hw. unfold deltaForm. rewrite blobs_rev by exact Hw. rewrite sigma_rev.
  unfold len. rewrite rev_length, map_length.
  apply Qmult_comp; [|reflexivity].
  rewrite map_rev, sumQ_rev, map_map. apply sumQ_map_ext. intros b _. now rewrite sigma_rev.
Qed.

Theorem delta_rev l : (delta (rev l) == delta l)%Q.
Proof. unfold delta. rewrite !deltaForm_rev by lia. reflexivity. Qed.

Lemma opp_blk c k : map Z.opp (blk c k) = blk (- c) k.
Proof. unfold blk. induction k as [|k IH]; [reflexivity|]. cbn [repeat map]. now rewrite IH. Qed.
Lemma rev_blk c k : rev (blk c k) = blk c k.
Proof. unfold blk. induction k as [|k IH]; [reflexivity|]. cbn [repeat rev]. now rewrite IH, <- repeat_cons. Qed.

Ltac norm_blk := repeat (rewrite ?map_app, ?rev_app_distr, ?opp_blk, ?rev_blk, <- ?app_assoc); cbn [Z.opp].

(* each candidate of the swapped composition is a candidate of the original one: as it stands (equal
   blocks sliding through each other), after charge inversion (the other sliding families), or after
   inversion and reversal (the families with neutral gaps) *)
Lemma cands_swap p n z l : In l (cands n p z) ->
  exists l', In l' (cands p n z) /\ (l' = l \/ l' = map Z.opp l \/ l' = rev (map Z.opp l)).
Proof.
  unfold cands. destruct p as [|p'], n as [|n']; simpl (_ + _ =? 0)%nat; cbn [Nat.eqb orb]; [intros []| | |].
  - destruct (S n' <? z)%nat; intros [pos [<- Hpos]]%in_map_iff;
      eexists; (split; [apply in_map_iff; exists pos; split; [reflexivity | exact Hpos] | right; left; norm_blk; reflexivity]).
  - destruct (S p' <? z)%nat; intros [pos [<- Hpos]]%in_map_iff;
      eexists; (split; [apply in_map_iff; exists pos; split; [reflexivity | exact Hpos] | right; left; norm_blk; reflexivity]).
  - set (p := S p'). set (n := S n'). destruct (z =? 0)%nat.
    + destruct (Nat.ltb_spec p n), (Nat.ltb_spec n p); [lia | | | replace n with p by lia; intros Hl; exists l; auto];
        intros [pos [<- Hpos]]%in_map_iff;
        eexists; (split; [apply in_map_iff; exists pos; split; [reflexivity | exact Hpos] | right; left; norm_blk; reflexivity]).
    + destruct (Nat.leb_spec 18 z) as [E18|E18]; intros [a [Ha%in_seq [b [<- Hb%in_seq]]%in_map_iff]]%in_flat_map; eexists; (split; [apply in_flat_map|]).
      * exists b. split; [apply in_seq; lia|]. apply in_map_iff. exists a. split; [reflexivity | apply in_seq; lia].
      * right; right. norm_blk. now replace (z - b - a)%nat with (z - a - b)%nat by lia.
      * exists a. split; [apply in_seq; lia|]. apply in_map_iff. exists (z - b - a)%nat. split; [reflexivity | apply in_seq; lia].
      * right; right. norm_blk. now replace (z - (z - b - a) - a)%nat with b by lia.
Qed.

Theorem dmax_swap p n z : (dmax n p z == dmax p n z)%Q.
Proof.
  assert (Hle : forall a b, (dmax a b z <= dmax b a z)%Q).
  { intros a b. unfold dmax. rewrite (Nat.add_comm b a).
    destruct (a + b =? 0)%nat; [apply Qle_refl|].
    apply qmax_fold_le_of_cover. intros x Hx. apply in_map_iff in Hx as [l [<- Hl]].
    destruct (cands_swap b a z l Hl) as [l' [Hin E]]. exists (delta l'). split; [apply in_map, Hin|].
    destruct E as [-> | [-> | ->]]; rewrite ?delta_rev, ?delta_inv; apply Qle_refl. }
  apply Qle_antisym; apply Hle.
Qed.

Lemma natcomp_rev l : natcomp (rev l) = natcomp l.
Proof. unfold natcomp, nneut, npos, nneg, len. now rewrite !cnt_rev, rev_length. Qed.

Lemma natcomp_opp l : natcomp (map Z.opp l) = (let '(p, n, z) := natcomp l in (n, p, z)).
Proof.
  unfold natcomp, nneut, len. rewrite npos_opp, nneg_opp, map_length.
  now rewrite <- Z.sub_add_distr, (Z.add_comm (nneg l)), Z.sub_add_distr.
Qed.

Theorem dmax_rev l : dmax_of (rev l) = dmax_of l.
Proof. unfold dmax_of. now rewrite natcomp_rev. Qed.

Theorem dmax_inv l : (dmax_of (map Z.opp l) == dmax_of l)%Q.
Proof.
  unfold dmax_of. rewrite natcomp_opp. destruct (natcomp l) as [[p n] z]. apply dmax_swap.
Qed.

Theorem kappa_rev l : (kappa (rev l) == kappa l)%Q.
Proof. unfold kappa. apply kappa_c_compat; [apply delta_rev | rewrite dmax_rev; reflexivity]. Qed.

Theorem kappa_inv l : (kappa (map Z.opp l) == kappa l)%Q.
Proof. unfold kappa. apply kappa_c_compat; [rewrite delta_inv; reflexivity | apply dmax_inv]. Qed.

Theorem respell_invariant (s t : list aa) : pat s = pat t ->
  delta (pat s) = delta (pat t) /\ dmax_of (pat s) = dmax_of (pat t) /\ kappa (pat s) = kappa (pat t).
Proof. intros ->. repeat split. Qed.

Lemma pat_rev s : pat (rev s) = rev (pat s).
Proof. unfold pat. now rewrite map_rev. Qed.
