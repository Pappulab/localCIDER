(* Proofs/DeltaMax.v — the candidate family, its maximum, kappa (C01, C03). *)
From Coq Require Import QArith List Permutation.
From LC Require Import Core.Lists Core.QTools Spec.Delta Model.Delta Proofs.Delta.
Import ListNotations.
Local Open Scope Z_scope.

Lemma qmax_fold_cons m x xs : qmax_fold m (x :: xs) = qmax_fold (if Qlt_le_dec m x then x else m) xs.
Proof. reflexivity. Qed.

Lemma qmax_fold_ge_init xs m : (m <= qmax_fold m xs)%Q.
Proof.
  revert m. induction xs as [|x xs IH]; intros m; [apply Qle_refl|]. rewrite qmax_fold_cons.
  destruct (Qlt_le_dec m x) as [H|H]; [|apply IH].
  eapply Qle_trans; [apply Qlt_le_weak; exact H | apply IH].
Qed.

Lemma qmax_fold_ge xs m x : In x xs -> (x <= qmax_fold m xs)%Q.
Proof.
  revert m. induction xs as [|y xs IH]; intros m Hin; [destruct Hin|]. rewrite qmax_fold_cons.
  destruct Hin as [->|Hin]; [|apply IH; exact Hin].
  destruct (Qlt_le_dec m x) as [H|H]; [apply qmax_fold_ge_init|].
  eapply Qle_trans; [exact H | apply qmax_fold_ge_init].
Qed.

Lemma qmax_fold_in xs m : qmax_fold m xs = m \/ In (qmax_fold m xs) xs.
Proof.
  revert m. induction xs as [|y xs IH]; intros m; [left; reflexivity|]. rewrite qmax_fold_cons.
  destruct (IH (if Qlt_le_dec m y then y else m)) as [H|H]; [|right; right; exact H].
  rewrite H. destruct (Qlt_le_dec m y); [right; left; reflexivity | left; reflexivity].
Qed.

Lemma qmax_fold_compat xs ys m m' :
  Forall2 Qeq xs ys -> (m == m')%Q -> (qmax_fold m xs == qmax_fold m' ys)%Q.
Proof.
  intros H. revert m m'. induction H as [|x y xs ys Hxy _ IH]; intros m m' Hm; [exact Hm|].
  rewrite !qmax_fold_cons. apply IH. rewrite (Qlt_le_dec_compat m x m' y _ _ Hm Hxy).
  destruct (Qlt_le_dec m' y); assumption.
Qed.

Lemma qmax_fold_le_of_cover xs ys m :
  (forall x, In x xs -> exists y, In y ys /\ (x <= y)%Q) -> (qmax_fold m xs <= qmax_fold m ys)%Q.
Proof.
  intros H. destruct (qmax_fold_in xs m) as [E|E].
  - rewrite E. apply qmax_fold_ge_init.
  - destruct (H _ E) as [y [Hy Hle]]. eapply Qle_trans; [exact Hle | apply qmax_fold_ge; exact Hy].
Qed.

(* the loop body of Model.Delta.m_search, which is anonymous there; an edit of that body must be mirrored here
   (m_search_fold stops compiling otherwise) *)
Definition m_step (acc : Q * option (list Z)) (c : list Z) : Q * option (list Z) :=
  let d := m_delta c in if Qlt_le_dec (fst acc) d then (d, Some c) else acc.

Lemma m_search_fold cs : m_search cs = fold_left m_step cs ((-1)%Q, None).
Proof. reflexivity. Qed.

Lemma m_search_fst cs acc : fst (fold_left m_step cs acc) = qmax_fold (fst acc) (map m_delta cs).
Proof.
  revert acc. induction cs as [|c cs IH]; intros acc; [reflexivity|].
  cbn [fold_left map]. rewrite qmax_fold_cons, IH. unfold m_step. now destruct (Qlt_le_dec (fst acc) (m_delta c)).
Qed.

Lemma m_search_cases cs acc :
  fold_left m_step cs acc = acc \/ exists c, In c cs /\ fold_left m_step cs acc = (m_delta c, Some c).
Proof.
  revert acc. induction cs as [|c cs IH]; intros acc; [left; reflexivity|]. cbn [fold_left].
  destruct (IH (m_step acc c)) as [E|[c' [Hin E]]]; [|right; exists c'; split; [right; exact Hin | exact E]].
  rewrite E. unfold m_step. destruct (Qlt_le_dec (fst acc) (m_delta c)); [right; exists c; split; [left|]; reflexivity | left; reflexivity].
Qed.

Theorem m_dmax_spec l : (m_dmax l == dmax_of l)%Q.
Proof.
  unfold m_dmax, m_dmax_arg, dmax_of, dmax. destruct (natcomp l) as [[p n] z].
  destruct (p + n =? 0)%nat; [reflexivity|].
  rewrite m_search_fold, m_search_fst. apply qmax_fold_compat; [|reflexivity].
  induction (cands p n z); constructor; [apply m_delta_spec | assumption].
Qed.

Lemma clamp_compat r r' : (r == r')%Q -> (clamp r == clamp r')%Q.
Proof.
  intros H. unfold clamp.
  rewrite (Qlt_le_dec_compat 1 r 1 r' _ _ (Qeq_refl 1) H), (Qlt_le_dec_compat r (11#10) r' (11#10) _ _ H (Qeq_refl _)).
  destruct (Qlt_le_dec 1 r'); [destruct (Qlt_le_dec r' (11#10)); [reflexivity|]|]; exact H.
Qed.

(* the body of Model.Delta.m_kappa, literally, over variables: stated apart so that no conversion has to look into
   m_delta or m_dmax; an edit of m_kappa must be mirrored here (m_kappa_spec stops compiling otherwise) *)
Lemma kappa_code_spec (dm dM k r : Q) : (dm == dM)%Q -> (k == r)%Q ->
  ((if Qeq_bool dm 0 then -1 else if Qlt_le_dec 1 k then (if Qlt_le_dec k (11#10) then 1 else k) else k)
   == (if Qeq_bool dM 0 then -1 else clamp r))%Q.
Proof.
  intros Hd Hk. rewrite (Qeqb_comp _ _ Hd 0 0 (Qeq_refl 0))%Q.
  destruct (Qeq_bool dM 0); [reflexivity | exact (clamp_compat k r Hk)].
Qed.

Lemma kappa_c_compat a b a' b' : (a == a')%Q -> (b == b')%Q -> (kappa_c a b == kappa_c a' b')%Q.
Proof. intros Ha Hb. apply (kappa_code_spec b b' (a / b) (a' / b') Hb). now rewrite Ha, Hb. Qed.

Theorem m_kappa_spec l : (m_kappa l == kappa l)%Q.
Proof.
  apply (kappa_code_spec (m_dmax l) (dmax_of l) (Qred (m_delta l / m_dmax l)) (delta l / dmax_of l)); [apply m_dmax_spec|].
  now rewrite Qred_correct, m_delta_spec, m_dmax_spec.
Qed.

(* l is an arrangement of the composition (p, n, z).  It stands here beside the facts about the family; that every
   candidate is one is Permutant.cands_arrangement, which shares its case analysis with the 1/-1/0 property there,
   and Props/C03 quotes it *)
Definition is_arr (p n z : nat) (l : list Z) : Prop :=
  npos l = Z.of_nat p /\ nneg l = Z.of_nat n /\ length l = (p + n + z)%nat.

Lemma cands_nonempty p n z : (p + n <> 0)%nat -> cands p n z <> [].
Proof.
  intros H. unfold cands. apply Nat.eqb_neq in H. rewrite H.
  destruct ((p =? 0)%nat || (n =? 0)%nat).
  - destruct (_ <? z)%nat; rewrite Nat.add_1_r; cbn [seq map]; discriminate.
  - destruct (z =? 0)%nat.
    + destruct (n <? p)%nat; rewrite Nat.add_1_r; cbn [seq map]; discriminate.
    + destruct (18 <=? z)%nat.
      * cbn [seq flat_map map app]. discriminate.
      * rewrite Nat.add_1_r. cbn [seq flat_map]. rewrite Nat.add_1_r. cbn [seq map app]. discriminate.
Qed.

Theorem dmax_is_max p n z l : In l (cands p n z) -> (delta l <= dmax p n z)%Q.
Proof.
  intros H. unfold dmax. destruct (p + n =? 0)%nat eqn:E.
  - unfold cands in H. rewrite E in H. destruct H.
  - apply qmax_fold_ge. apply in_map. exact H.
Qed.

Theorem dmax_attained p n z : (p + n <> 0)%nat ->
  exists l, In l (cands p n z) /\ dmax p n z = delta l.
Proof.
  intros H. unfold dmax. rewrite (proj2 (Nat.eqb_neq _ _) H).
  destruct (qmax_fold_in (map delta (cands p n z)) (-1)%Q) as [E|E].
  - (* the start value -1 lies below the delta of the first candidate *)
    exfalso. destruct (cands p n z) as [|c cs] eqn:Ec; [apply (cands_nonempty p n z H Ec)|].
    apply (Qlt_not_le (-1) 0); [reflexivity|].
    eapply Qle_trans; [apply (delta_nonneg c)|]. rewrite <- E. apply qmax_fold_ge. left. reflexivity.
  - apply in_map_iff in E. destruct E as [l [Hl Hin]]. exists l. split; [exact Hin | symmetry; exact Hl].
Qed.

Theorem dmax_uncharged z : dmax 0 0 z = 0%Q.
Proof. reflexivity. Qed.

Theorem dmax_nonneg p n z : (0 <= dmax p n z)%Q.
Proof.
  destruct (Nat.eq_dec (p + n) 0) as [E|E].
  - unfold dmax. apply Nat.eqb_eq in E. rewrite E. apply Qle_refl.
  - destruct (dmax_attained p n z E) as [l [_ ->]]. apply delta_nonneg.
Qed.

Theorem dmax_comp_only l l' : comp l = comp l' -> dmax_of l = dmax_of l'.
Proof.
  unfold comp, dmax_of, natcomp. intros H. injection H as H1 H2 H3. rewrite H1, H2, H3. reflexivity.
Qed.

Lemma comp_perm l l' : Permutation l l' -> comp l = comp l'.
Proof.
  intros H. unfold comp, nneut, npos, nneg, len.
  rewrite (cnt_perm _ _ _ H), (cnt_perm isnegb _ _ H), (Permutation_length H). reflexivity.
Qed.

Theorem dmax_perm l l' : Permutation l l' -> dmax_of l = dmax_of l'.
Proof. intros H. apply dmax_comp_only. apply comp_perm. exact H. Qed.

Lemma dmax_of_natcomp l p n z : natcomp l = (p, n, z) -> dmax_of l = dmax p n z.
Proof. unfold dmax_of. now intros ->. Qed.

Lemma dmax_of_nonneg l : (0 <= dmax_of l)%Q.
Proof. unfold dmax_of. destruct (natcomp l) as [[p n] z]. apply dmax_nonneg. Qed.

Lemma ratio_nonneg l : (0 <= delta l / dmax_of l)%Q.
Proof. apply Qmult_le_0_compat; [apply delta_nonneg | apply Qinv_le_0_compat, dmax_of_nonneg]. Qed.

Lemma clamp_nonneg r : (0 <= r)%Q -> (0 <= clamp r)%Q.
Proof.
  intros H. unfold clamp. destruct (Qlt_le_dec 1 r); [|exact H].
  destruct (Qlt_le_dec r (11#10)); [discriminate | exact H].
Qed.

Lemma kappa_zero l : (dmax_of l == 0)%Q -> kappa l = (-1)%Q.
Proof. intros H. unfold kappa, kappa_c. now rewrite (proj2 (Qeq_bool_iff _ _) H). Qed.

Theorem kappa_ratio l : ~ (dmax_of l == 0)%Q -> kappa l = clamp (delta l / dmax_of l)%Q.
Proof.
  intros H. unfold kappa, kappa_c. destruct (Qeq_bool (dmax_of l) 0) eqn:E; [|reflexivity].
  apply Qeq_bool_iff in E. contradiction.
Qed.

Theorem kappa_nonneg_or_sentinel l : kappa l = (-1)%Q \/ (0 <= kappa l)%Q.
Proof.
  destruct (Qeq_dec (dmax_of l) 0) as [E|E]; [left; apply kappa_zero, E | right].
  rewrite (kappa_ratio l E). apply clamp_nonneg, ratio_nonneg.
Qed.

Theorem kappa_sentinel_iff l : (kappa l == -1)%Q <-> (dmax_of l == 0)%Q.
Proof.
  split; [|intros H; now rewrite (kappa_zero l H)].
  (* otherwise kappa is a clamped ratio of non-negative numbers *)
  intros H. destruct (Qeq_dec (dmax_of l) 0) as [E|E]; [exact E | exfalso].
  apply (Qlt_not_le (-1) 0); [reflexivity|]. rewrite <- H, (kappa_ratio l E). apply clamp_nonneg, ratio_nonneg.
Qed.

(* kappa <= 1 exactly when delta stays below 1.1 x delta-max *)
Theorem kappa_le1_iff l : (0 < dmax_of l)%Q ->
  ((kappa l <= 1)%Q <-> (delta l < (11 # 10) * dmax_of l)%Q).
Proof.
  intros Hd. assert (Hnz : ~ (dmax_of l == 0)%Q) by apply Qnot_eq_sym, Qlt_not_eq, Hd.
  rewrite (kappa_ratio l Hnz). set (r := (delta l / dmax_of l)%Q).
  assert (Hr : (delta l == r * dmax_of l)%Q) by (unfold r; field; exact Hnz).
  assert (Hiff : (r < 11 # 10)%Q <-> (delta l < (11 # 10) * dmax_of l)%Q).
  { rewrite Hr. split; intros H; [apply Qmult_lt_compat_r | apply Qmult_lt_r in H]; assumption. }
  rewrite <- Hiff. unfold clamp.
  destruct (Qlt_le_dec 1 r) as [H1|H1].
  - destruct (Qlt_le_dec r (11#10)) as [H2|H2].
    + split; intros _; [exact H2 | apply Qle_refl].
    + split; intros H; exfalso; [apply (Qlt_not_le _ _ H1 H) | apply (Qlt_not_le _ _ H H2)].
  - split; intros _; [|exact H1]. eapply Qle_lt_trans; [exact H1 | reflexivity].
Qed.

(* every documented arrangement — hence every delta-max permutant — has kappa in range *)
Theorem kappa_family_le1 p n z l : In l (cands p n z) -> (0 < dmax p n z)%Q ->
  natcomp l = (p, n, z) -> (kappa l <= 1)%Q.
Proof.
  intros Hin Hd Hc.
  apply kappa_le1_iff; rewrite (dmax_of_natcomp l p n z Hc); [exact Hd|].
  eapply Qle_lt_trans; [apply dmax_is_max; exact Hin|].
  setoid_replace (dmax p n z) with (1 * dmax p n z)%Q at 1 by ring.
  apply Qmult_lt_compat_r; [exact Hd | reflexivity].
Qed.

(* the range claim is false of the documented heuristic: KEEEEK *)
Theorem kappa_range_refuted : exists l, (1 < kappa l)%Q.
Proof. exists [1; -1; -1; -1; -1; 1]. vm_compute. reflexivity. Qed.
