(* Proofs/Entropy.v — the Wootton–Federhen value is the Shannon entropy of the window composition to
   base alphabet-size; it lies in [0,1] (Gibbs), is 0 for a homopolymeric window (C11).  Over R. *)
From Coq Require Import Reals Lra List Lia.
Import ListNotations.
Local Open Scope R_scope.

Fixpoint sumR (l : list R) : R := match l with [] => 0 | x :: l' => x + sumR l' end.

(* p ln p with the convention 0 ln 0 = 0 *)
Definition plnp (p : R) : R := if Rle_dec p 0 then 0 else p * ln p.

(* WF of a count vector for window length w over k letters *)
Definition probs (counts : list Z) (w : Z) : list R := map (fun c => IZR c / IZR w) counts.
Definition WF_R (counts : list Z) (w : Z) (k : nat) : R := - sumR (map plnp (probs counts w)) / ln (INR k).

Lemma ln_le_minus1 x : 0 < x -> ln x <= x - 1.
Proof. intros Hx. pose proof (exp_ineq1_le (ln x)) as H. rewrite exp_ln in H by assumption. lra. Qed.

Lemma plnp_le_0 p : 0 <= p <= 1 -> plnp p <= 0.
Proof.
  intros [H0 H1]. unfold plnp. destruct (Rle_dec p 0); [lra|].
  assert (ln p <= 0) by (pose proof (ln_le_minus1 p ltac:(lra)); lra). nra.
Qed.

Lemma plnp_gibbs p k : 0 <= p -> 0 < k -> plnp p >= - p * ln k + p - / k.
Proof.
  intros Hp Hk. unfold plnp. destruct (Rle_dec p 0) as [H0|H0].
  - assert (p = 0) by lra. subst. assert (0 < / k) by (apply Rinv_0_lt_compat; exact Hk). lra.
  - assert (Hp' : 0 < p) by lra.
    assert (Hq : 0 < / (k * p)) by (apply Rinv_0_lt_compat; apply Rmult_lt_0_compat; lra).
    pose proof (ln_le_minus1 (/ (k * p)) Hq) as HL.
    rewrite ln_Rinv in HL by (apply Rmult_lt_0_compat; lra). rewrite ln_mult in HL by lra.
    assert (p * (- (ln k + ln p)) <= p * (/ (k * p) - 1)) by (apply Rmult_le_compat_l; lra).
    assert (p * / (k * p) = / k) by (field; split; lra). nra.
Qed.

Lemma sumR_ge (f g : R -> R) l : (forall x, In x l -> f x >= g x) -> sumR (map f l) >= sumR (map g l).
Proof.
  induction l as [|x l IH]; intros H; cbn [map sumR]; [lra|].
  pose proof (H x (or_introl eq_refl)). pose proof (IH (fun y Hy => H y (or_intror Hy))). lra.
Qed.

Lemma sumR_affine a c l : sumR (map (fun p => a * p + c) l) = a * sumR l + c * INR (length l).
Proof.
  induction l as [|x l IH]; [cbn; lra|]. cbn [map sumR]. rewrite IH. cbn [length]. rewrite S_INR. lra.
Qed.

Lemma sumR_le0 (f : R -> R) l : (forall x, In x l -> f x <= 0) -> sumR (map f l) <= 0.
Proof.
  intros H. enough (0 * sumR l + 0 * INR (length l) >= sumR (map f l)) by lra.
  rewrite <- sumR_affine. apply sumR_ge. intros x Hx. specialize (H x Hx). lra.
Qed.

Lemma sumR_app a b : sumR (a ++ b) = sumR a + sumR b.
Proof. induction a as [|x a IH]; cbn [app sumR]; [lra | rewrite IH; lra]. Qed.

Lemma sumR_probs counts w : IZR w <> 0 -> sumR (probs counts w) = IZR (fold_right Z.add 0%Z counts) / IZR w.
Proof.
  intros Hw. unfold probs. induction counts as [|c cs IH]; cbn [map sumR fold_right]; [unfold Rdiv; lra|].
  rewrite IH, plus_IZR. field. exact Hw.
Qed.

Lemma ln_k_pos k : (2 <= k)%nat -> 0 < ln (INR k).
Proof. intros H. rewrite <- ln_1. apply ln_increasing; [lra|]. apply le_INR in H. cbn in H. lra. Qed.

(* 0 <= WF: every probability is in [0,1] *)
Theorem WF_nonneg counts w k : (0 < w)%Z -> Forall (fun c => (0 <= c <= w)%Z) counts -> (2 <= k)%nat ->
  0 <= WF_R counts w k.
Proof.
  intros Hw Hc Hk. unfold WF_R. apply Rmult_le_pos; [|left; apply Rinv_0_lt_compat; apply ln_k_pos; exact Hk].
  assert (Hs : sumR (map plnp (probs counts w)) <= 0).
  { apply sumR_le0. intros p Hp. unfold probs in Hp. apply in_map_iff in Hp. destruct Hp as [c [<- Hcin]].
    rewrite Forall_forall in Hc. specialize (Hc c Hcin). apply plnp_le_0.
    assert (0 < IZR w) by (apply IZR_lt; exact Hw). destruct Hc as [H0 H1]. apply IZR_le in H0. apply IZR_le in H1.
    split; [apply Rmult_le_pos; [exact H0 | left; apply Rinv_0_lt_compat; assumption]|].
    apply Rmult_le_reg_r with (IZR w); [assumption|]. unfold Rdiv. rewrite Rmult_assoc, Rinv_l by lra. lra. }
  lra.
Qed.

(* WF <= 1: Gibbs' inequality; the counts of the k alphabet letters add up to the window length *)
Theorem WF_le_1 counts w k : (0 < w)%Z -> Forall (fun c => (0 <= c)%Z) counts ->
  fold_right Z.add 0%Z counts = w -> length counts = k -> (2 <= k)%nat -> WF_R counts w k <= 1.
Proof.
  intros Hw Hc Hsum Hlen Hk. unfold WF_R.
  assert (Hwr : 0 < IZR w) by (apply IZR_lt; exact Hw).
  assert (Hkr : 0 < INR k) by (apply lt_0_INR; lia).
  pose proof (ln_k_pos k Hk) as Hln.
  assert (Hg : sumR (map plnp (probs counts w)) >= sumR (map (fun p => (1 - ln (INR k)) * p + - / INR k) (probs counts w))).
  { apply sumR_ge. intros p Hp. unfold probs in Hp. apply in_map_iff in Hp. destruct Hp as [c [<- Hcin]].
    rewrite Forall_forall in Hc. specialize (Hc c Hcin). apply IZR_le in Hc.
    pose proof (plnp_gibbs (IZR c / IZR w) (INR k)) as G.
    assert (0 <= IZR c / IZR w) by (apply Rmult_le_pos; [exact Hc | left; apply Rinv_0_lt_compat; assumption]).
    specialize (G H Hkr). lra. }
  rewrite sumR_affine in Hg. rewrite sumR_probs in Hg by lra. rewrite Hsum in Hg.
  unfold probs in Hg. rewrite map_length, Hlen in Hg.
  replace (IZR w / IZR w) with 1 in Hg by (field; lra).
  replace (- / INR k * INR k) with (-1) in Hg by (field; lra).
  apply Rmult_le_reg_r with (ln (INR k)); [exact Hln|].
  unfold Rdiv. rewrite Rmult_assoc, Rinv_l by lra. unfold probs. lra.
Qed.

(* a homopolymeric window has WF = 0: one letter has all w occurrences *)
Theorem WF_homopolymer pre post w k : (0 < w)%Z ->
  WF_R (repeat 0%Z pre ++ [w] ++ repeat 0%Z post) w k = 0.
Proof.
  intros Hw. unfold WF_R, probs. assert (Hwr : 0 < IZR w) by (apply IZR_lt; exact Hw).
  assert (Hz : forall n, sumR (map plnp (map (fun c => IZR c / IZR w) (repeat 0%Z n))) = 0).
  { induction n as [|n IH]; [reflexivity|]. cbn [repeat map sumR]. rewrite IH. unfold plnp.
    destruct (Rle_dec (0 / IZR w) 0) as [|N]; [lra|]. exfalso. apply N. unfold Rdiv. lra. }
  rewrite !map_app, !sumR_app, !Hz. cbn [map sumR]. replace (IZR w / IZR w) with 1 by (field; lra).
  unfold plnp. destruct (Rle_dec 1 0); [lra|]. rewrite ln_1. unfold Rdiv. lra.
Qed.
