(* Proofs/Html.v — C20: rendering structure, markup stripping, palette acceptance. *)
From Coq Require Import List String Ascii Arith Lia.
From LC Require Import Core.Residue Core.Lists Model.Html.
Import ListNotations.
Local Open Scope string_scope.

Lemma sapp_assoc (a b c : string) : (a ++ b) ++ c = a ++ b ++ c.
Proof. induction a as [|x a IH]; cbn [append]; [reflexivity | now rewrite IH]. Qed.
Lemma chars_app (a b : string) : list_ascii_of_string (a ++ b) = (list_ascii_of_string a ++ list_ascii_of_string b)%list.
Proof. induction a as [|x a IH]; cbn [append list_ascii_of_string app]; [reflexivity | now rewrite IH]. Qed.

(* the accumulating loop appends the pieces; a tail is carried along so that the empty sequence needs no a ++ "" = a *)
Lemma render_fold pal s tail : forall str i,
  fst (fold_left (fun (acc : string * nat) r =>
                    let '(str, count) := acc in
                    let str1 := if (count mod 10 =? 0)%nat then str ++ " " else str in
                    let str2 := if (count mod 50 =? 0)%nat then str1 ++ "<br>" else str1 in
                    (str2 ++ span (pal r) r, S count)) s (str, i)) ++ tail
  = str ++ pieces pal i s ++ tail.
Proof.
  induction s as [|r s IH]; intros str i; cbn [fold_left pieces]; [reflexivity|].
  rewrite IH. unfold piece.
  destruct (i mod 10 =? 0)%nat, (i mod 50 =? 0)%nat; cbn [append]; rewrite ?sapp_assoc; cbn [append]; reflexivity.
Qed.

Theorem m_render_spec pal s : m_render pal s = render pal s.
Proof. apply render_fold. Qed.

Theorem render_structure pal s :
  render pal s = header ++ pieces pal 0 s ++ footer /\
  forall i r, piece pal i r =
    (if (i mod 10 =? 0)%nat then " " else "") ++ (if (i mod 50 =? 0)%nat then "<br>" else "") ++
    "<span style=""color:" ++ pal r ++ """>" ++ aa_str r ++ "</span>".
Proof. split; reflexivity. Qed.

Lemma pieces_app pal s t : forall i, pieces pal i (s ++ t) = pieces pal i s ++ pieces pal (i + List.length s) t.
Proof.
  induction s as [|r s IH]; intros i; cbn [app pieces List.length]; [now rewrite Nat.add_0_r|].
  rewrite IH, sapp_assoc. now replace (S i + List.length s)%nat with (i + S (List.length s))%nat by lia.
Qed.

Definition no_gt (s : string) : bool := forallb (fun c => negb (Ascii.eqb c ">")) (list_ascii_of_string s).

Lemma strip_in_tag body rest : forallb (fun c => negb (Ascii.eqb c ">")) body = true ->
  strip true (body ++ ">"%char :: rest) = strip false rest.
Proof.
  induction body as [|c body IH]; intros H; cbn [app strip]; [reflexivity|].
  cbn [forallb] in H. apply andb_prop in H. destruct H as [Hc Hb].
  destruct (Ascii.eqb c ">"); [discriminate Hc | apply IH; exact Hb].
Qed.

Definition span_body (c : string) : list ascii :=
  (list_ascii_of_string "span style=""color:" ++ list_ascii_of_string c ++ [""""%char])%list.
Definition E_chars : list ascii := list_ascii_of_string "/span".

Lemma span_chars c r :
  list_ascii_of_string (span c r) =
  ("<"%char :: span_body c ++ ">"%char :: aa_char r :: "<"%char :: E_chars ++ [">"%char])%list.
Proof.
  unfold span, aa_str, str1, span_body. rewrite !chars_app. cbn [list_ascii_of_string].
  unfold E_chars. cbn [list_ascii_of_string app]. rewrite <- !app_assoc. cbn [app]. reflexivity.
Qed.

Lemma strip_tag body rest : forallb (fun c => negb (Ascii.eqb c ">")) body = true ->
  strip false ("<"%char :: body ++ ">"%char :: rest) = strip false rest.
Proof. intros H. cbn [strip]. change (Ascii.eqb "<" "<") with true. cbn iota. apply strip_in_tag. exact H. Qed.

Lemma aa_char_plain r : Ascii.eqb (aa_char r) "<" = false /\ Ascii.eqb (aa_char r) " " = false.
Proof. destruct r; split; reflexivity. Qed.

Lemma strip_span c r rest : no_gt c = true ->
  strip false (list_ascii_of_string (span c r) ++ rest) = aa_char r :: strip false rest.
Proof.
  intros Hc. rewrite span_chars. cbn [app]. rewrite <- app_assoc. cbn [app].
  rewrite strip_tag.
  - cbn [strip]. destruct (aa_char_plain r) as [-> ->]. f_equal.
  - unfold span_body. rewrite !forallb_app. unfold no_gt in Hc. rewrite Hc. reflexivity.
Qed.

Lemma strip_piece pal i r rest : no_gt (pal r) = true ->
  strip false (list_ascii_of_string (piece pal i r) ++ rest) = aa_char r :: strip false rest.
Proof.
  intros H. unfold piece. rewrite !chars_app, <- !app_assoc.
  destruct (i mod 10 =? 0)%nat, (i mod 50 =? 0)%nat; cbn [list_ascii_of_string app strip];
    repeat (change (Ascii.eqb " " "<") with false; change (Ascii.eqb " " " ") with true; cbn iota);
    try (rewrite (strip_tag ["b"; "r"]%char) by reflexivity); apply strip_span; exact H.
Qed.

Lemma strip_pieces pal s : (forall r, no_gt (pal r) = true) -> forall i rest,
  strip false (list_ascii_of_string (pieces pal i s) ++ rest) = (map aa_char s ++ strip false rest)%list.
Proof.
  intros H. induction s as [|r s IH]; intros i rest; cbn [pieces map app]; [reflexivity|].
  rewrite chars_app, <- app_assoc. rewrite strip_piece by apply H. f_equal. apply IH.
Qed.

Theorem strip_render pal s : (forall r, no_gt (pal r) = true) -> strip_markup (render pal s) = map aa_char s.
Proof.
  intros H. unfold strip_markup, render. rewrite !chars_app.
  match goal with |- strip false (_ ++ ?R)%list = _ => change (strip false R = map aa_char s) end.
  rewrite strip_pieces by exact H.
  change (strip false (list_ascii_of_string footer)) with (@nil ascii). apply app_nil_r.
Qed.

Definition pal_valid (pal : palette) : Prop := forall r, In (pal r) colours17.

Lemma in_strs_In x l : in_strs x l = true <-> In x l.
Proof. exact (existsb_eqb_In String.eqb String.eqb_eq x l). Qed.

Lemma colours_no_gt c : In c colours17 -> no_gt c = true.
Proof. intros H. repeat (destruct H as [<-|H]; [reflexivity|]). destruct H. Qed.

Lemma default_palette_valid : pal_valid default_palette.
Proof. intros r. apply in_strs_In. destruct r; reflexivity. Qed.

Lemma lookup_rs_sound d rs t : lookup_rs d rs = Some t ->
  map fst t = rs /\ forall r c, In (r, c) t -> assoc (aa_str r) d = Some c /\ In c colours17.
Proof.
  revert t. induction rs as [|r rs IH]; cbn [lookup_rs]; intros t Ht.
  - injection Ht as <-. split; [reflexivity | intros r c []].
  - destruct (assoc (aa_str r) d) as [c|] eqn:Ec; [|discriminate Ht].
    destruct (in_strs c colours17) eqn:E; [|discriminate Ht].
    destruct (lookup_rs d rs) as [t'|] eqn:Eg; [|discriminate Ht]. injection Ht as <-.
    destruct (IH t' eq_refl) as [Hm Hin]. split; [cbn [map fst]; now rewrite Hm|].
    intros r0 c0 [E0|H0]; [injection E0 as <- <-; split; [exact Ec | apply in_strs_In; exact E] | apply Hin; exact H0].
Qed.

(* acceptance: exactly the dictionaries giving each of the 20 residues one of the 17 colours *)
Lemma lookup_rs_spec d rs :
  (exists t, lookup_rs d rs = Some t) <-> (forall r, In r rs -> exists c, assoc (aa_str r) d = Some c /\ In c colours17).
Proof.
  split.
  - intros [t Ht] r Hr. destruct (lookup_rs_sound d rs t Ht) as [Hm Hin].
    rewrite <- Hm in Hr. apply in_map_iff in Hr. destruct Hr as [[r' c] [<- Hrc]]. exists c. exact (Hin r' c Hrc).
  - induction rs as [|r rs IH]; intros H; cbn [lookup_rs]; [exists []; reflexivity|].
    destruct (H r (or_introl eq_refl)) as [c [-> Hin]]. rewrite (proj2 (in_strs_In c colours17) Hin).
    destruct (IH (fun r' Hr' => H r' (or_intror Hr'))) as [t' ->]. eexists. reflexivity.
Qed.

Theorem palette_accept_iff pal d :
  (exists pal', set_palette pal d = Some pal') <->
  (forall r, exists c, assoc (aa_str r) d = Some c /\ In c colours17).
Proof.
  unfold set_palette, lookup_all. split.
  - intros [pal' H] r. destruct (lookup_rs d all20) as [t|] eqn:E; [|discriminate H].
    apply (proj1 (lookup_rs_spec d all20)); [exists t; exact E | apply all20_complete].
  - intros H. destruct (proj2 (lookup_rs_spec d all20) (fun r _ => H r)) as [t Ht]. rewrite Ht. eexists. reflexivity.
Qed.

Theorem palette_reject_unchanged pal d : set_palette pal d = None -> pal_step pal d = pal.
Proof. intros H. unfold pal_step. now rewrite H. Qed.

(* an accepted dictionary becomes the palette: every residue gets the colour the dictionary gives it *)
Theorem palette_accept_sets pal d pal' : set_palette pal d = Some pal' ->
  forall r, assoc (aa_str r) d = Some (pal' r) /\ In (pal' r) colours17.
Proof.
  unfold set_palette, lookup_all. destruct (lookup_rs d all20) as [t|] eqn:E; [|discriminate].
  intros H r. injection H as <-. destruct (lookup_rs_sound d all20 t E) as [Hm Hin].
  unfold pal_of. destruct (find (fun p => aa_eqb (fst p) r) t) as [[r' c]|] eqn:F.
  - apply find_some in F. destruct F as [F1 F2]. cbn [fst] in F2. apply aa_eqb_eq in F2. subst r'. cbn [snd].
    apply Hin. exact F1.
  - exfalso. assert (Hr : In r (map fst t)) by (rewrite Hm; apply all20_complete).
    apply in_map_iff in Hr. destruct Hr as [[r' c] [E1 E2]]. cbn [fst] in E1. subst r'.
    pose proof (find_none _ _ F _ E2) as Hn. cbn [fst] in Hn. rewrite aa_eqb_refl in Hn. discriminate.
Qed.

(* over any history of updates the palette stays total over valid colours *)
Theorem palette_inv ds : forall pal, pal_valid pal -> pal_valid (fold_left pal_step ds pal).
Proof.
  induction ds as [|d ds IH]; intros pal H; [exact H|]. cbn [fold_left]. apply IH.
  unfold pal_step. destruct (set_palette pal d) as [p|] eqn:E; [|exact H].
  intros r. apply (palette_accept_sets pal d p E r).
Qed.

Corollary strip_render_after_history ds s :
  strip_markup (render (fold_left pal_step ds default_palette) s) = map aa_char s.
Proof.
  apply strip_render. intros r. apply colours_no_gt. apply (palette_inv ds default_palette default_palette_valid).
Qed.
