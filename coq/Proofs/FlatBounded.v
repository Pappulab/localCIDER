(* Proofs/FlatBounded.v — bounded half of C01 clause (iv): among the 968 compositions with N <= 16,
   delta-max = 0 only for the flat ones.  Delta-max bounds the delta of every member of the documented
   family, and delta is positive once a single blob's asymmetry differs from the whole sequence's; kernel
   evaluation finds such a blob in the FIRST member of the family of each of the 880 other compositions. *)
From Coq Require Import QArith List.
From LC Require Import Core.Lists Spec.Delta Proofs.Delta Proofs.DeltaMax Proofs.Flat.
Import ListNotations.

Definition uneven (l : list Z) : bool := existsb (fun b => negb (Qeq_bool (sigma l) (sigma b))) (blobs 5 l).

Lemma uneven_delta l : uneven l = true -> 0 < delta l.
Proof.
  intros H. apply existsb_exists in H as [b [Hb Hne]]. apply (delta_pos l b Hb).
  rewrite <- Qeq_bool_iff. now apply not_true_iff_false, negb_true_iff.
Qed.

Definition head_uneven (p n z : nat) : bool := match cands p n z with l :: _ => uneven l | [] => false end.

Lemma head_uneven_dmax p n z : head_uneven p n z = true -> Qeq_bool (dmax p n z) 0 = false.
Proof.
  unfold head_uneven. destruct (cands p n z) as [|l ls] eqn:E; [discriminate|]. intros H.
  apply not_true_iff_false. rewrite Qeq_bool_iff. intros E0.
  apply (Qlt_not_le _ _ (uneven_delta l H)). rewrite <- E0. apply dmax_is_max. rewrite E. now left.
Qed.

Lemma flat_or_uneven_upto_16 :
  forallb (fun c => let '(p, n, z) := c in flat_b p n z || head_uneven p n z) (all_comps 16) = true.
Proof. vm_compute. reflexivity. Qed.

Lemma dmax0_flat_upto_16 :
  forallb (fun c => let '(p, n, z) := c in implb (Qeq_bool (dmax p n z) 0) (flat_b p n z)) (all_comps 16) = true.
Proof.
  pose proof flat_or_uneven_upto_16 as H. rewrite forallb_forall in *.
  intros [[p n] z] Hin. specialize (H _ Hin). cbn beta iota in *.
  destruct (flat_b p n z); [apply implb_true_r|]. now rewrite (head_uneven_dmax p n z H).
Qed.
