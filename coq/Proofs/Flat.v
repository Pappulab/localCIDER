(* Proofs/Flat.v — clause (iv) of C01: compositions none of whose arrangements has any
   charge-asymmetry variance (the flat ones) have delta = 0 in every arrangement; that delta-max = 0 only for
   them is the bounded statement of Proofs/FlatBounded.v. *)
From Coq Require Import QArith List Lia.
From LC Require Import Core.Lists Spec.Delta Proofs.Delta Proofs.Invariance.
Import ListNotations.
Local Open Scope Z_scope.

(* no charge, or at most 5 residues, or a single charge type and no neutral residue *)
Definition flat_b (p n z : nat) : bool :=
  ((p + n =? 0) || (p + n + z <=? 5) || ((z =? 0) && ((p =? 0) || (n =? 0))))%nat.

(* the compositions (p, n, z) of total length 1..B: the domain of the bounded sweeps in FlatBounded (B = 16, tested
   against flat_b above) and in Props/Tie/deltamax_tie (B = 26) *)
Definition all_comps (B : nat) : list (nat * nat * nat) :=
  flat_map (fun N => flat_map (fun p => map (fun n => (p, n, N - p - n)%nat) (seq 0 (N - p + 1))) (seq 0 (N + 1)))
           (seq 1 B).

(* five residues: the only blob is the sequence itself *)
Lemma delta_le5 l : (length l <= 5)%nat -> (delta l == 0)%Q.
Proof.
  intros H. destruct (Nat.eq_dec (length l) 5) as [E|E]; [|apply delta_short; lia].
  unfold delta. rewrite (deltaForm_too_long 6) by lia. rewrite deltaForm_const; [reflexivity|].
  rewrite <- E, blobs_whole. intros b [<-|[]]. reflexivity.
Qed.

Lemma sigma_c_one w : 0 < w -> (sigma_c w 0 w == 1)%Q.
Proof.
  intros Hw. unfold sigma_c. rewrite Z.add_0_r, Z.sub_0_r.
  replace (w =? 0) with false by (symmetry; apply Z.eqb_neq; lia).
  unfold Qeq; cbn [Qnum Qden]. rewrite Z2Pos.id by nia. nia.
Qed.

Lemma sigma_all_pos l : l <> [] -> Forall (fun x => isposb x = true) l -> (sigma l == 1)%Q.
Proof.
  intros Hne Hall. unfold sigma, npos, nneg, len.
  assert (Hex : forall x, isposb x = true -> isnegb x = false) by (intros x; unfold isposb, isnegb; lia).
  rewrite (forall_cnt_all _ _ Hall), (forall_cnt_none _ _ _ Hex Hall).
  apply sigma_c_one. destruct l; [congruence | cbn [length]; lia].
Qed.

(* only positive charges: every blob, like the whole sequence, has asymmetry 1 *)
Lemma delta_all_pos l : Forall (fun x => isposb x = true) l -> (delta l == 0)%Q.
Proof.
  intros Hall.
  assert (Hf : forall w, (0 < w)%nat -> (deltaForm w l == 0)%Q).
  { intros w Hw. apply deltaForm_const. intros b Hb. apply blobs_In in Hb as [i [Hi ->]].
    pose proof (blob_length w i l Hi) as Hl.
    rewrite (sigma_all_pos l), (sigma_all_pos (blob w i l)); [reflexivity | | | | exact Hall].
    - intros E. rewrite E in Hl. cbn [length] in Hl. lia.
    - exact (incl_Forall (blob_incl w i l) Hall).
    - intros ->. cbn [length] in Hi. lia. }
  unfold delta. rewrite !Hf by lia. reflexivity.
Qed.

Theorem flat_all_arrangements p n z l : flat_b p n z = true -> natcomp l = (p, n, z) -> (delta l == 0)%Q.
Proof.
  intros Hflat Hc. destruct (natcomp_counts _ _ _ _ Hc) as [Hp [Hn Hz]].
  unfold flat_b in Hflat. apply orb_true_iff in Hflat. destruct Hflat as [Hflat|Hflat].
  - apply orb_true_iff in Hflat. destruct Hflat as [H0|H5].
    + apply Nat.eqb_eq in H0. apply delta_uncharged. lia.
    + apply Nat.leb_le in H5. apply delta_le5. unfold nneut, len in Hz. lia.
  - apply andb_true_iff in Hflat. destruct Hflat as [Hz0 Hone]. apply Nat.eqb_eq in Hz0.
    apply orb_true_iff in Hone. unfold nneut, len in Hz.
    destruct Hone as [E|E]; apply Nat.eqb_eq in E.
    + (* only negative charges: invert *)
      rewrite <- delta_inv. apply delta_all_pos, cnt_all_forall. fold (npos (map Z.opp l)).
      rewrite npos_opp, map_length. lia.
    + apply delta_all_pos, cnt_all_forall. fold (npos l). lia.
Qed.
