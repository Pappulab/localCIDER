(* C20 — HTML rendering shows each residue once, in order, in its palette colour; palette updates. *)
From Coq Require Import List String Arith.
From LC Require Import Core.Residue Model.Html Proofs.Html.
Import ListNotations.
Local Open Scope string_scope.

Theorem C20_loop_model_is_spec pal s : m_render pal s = render pal s.
Proof. exact (m_render_spec pal s). Qed.
Print Assumptions C20_loop_model_is_spec.

Theorem C20_structure pal s :
  render pal s = header ++ pieces pal 0 s ++ footer /\
  forall i r, piece pal i r =
    (if (i mod 10 =? 0)%nat then " " else "") ++ (if (i mod 50 =? 0)%nat then "<br>" else "") ++
    "<span style=""color:" ++ pal r ++ """>" ++ aa_str r ++ "</span>".
Proof. exact (render_structure pal s). Qed.

Theorem C20_pieces_in_order pal s t i : pieces pal i (s ++ t) = pieces pal i s ++ pieces pal (i + List.length s) t.
Proof. exact (pieces_app pal s t i). Qed.
Print Assumptions C20_pieces_in_order.

Theorem C20_stripping_markup_recovers_sequence pal s :
  (forall r, no_gt (pal r) = true) -> strip_markup (render pal s) = map aa_char s.
Proof. exact (strip_render pal s). Qed.
Print Assumptions C20_stripping_markup_recovers_sequence.

Theorem C20_accept_iff pal d :
  (exists pal', set_palette pal d = Some pal') <->
  (forall r, exists c, assoc (aa_str r) d = Some c /\ In c colours17).
Proof. exact (palette_accept_iff pal d). Qed.
Print Assumptions C20_accept_iff.

Theorem C20_accepted_dictionary_becomes_palette pal d pal' : set_palette pal d = Some pal' ->
  forall r, assoc (aa_str r) d = Some (pal' r) /\ In (pal' r) colours17.
Proof. exact (palette_accept_sets pal d pal'). Qed.
Print Assumptions C20_accepted_dictionary_becomes_palette.

Theorem C20_rejected_leaves_palette_unchanged pal d : set_palette pal d = None -> pal_step pal d = pal.
Proof. exact (palette_reject_unchanged pal d). Qed.

Theorem C20_palette_always_valid ds pal : pal_valid pal -> pal_valid (fold_left pal_step ds pal).
Proof. exact (palette_inv ds pal). Qed.
Print Assumptions C20_palette_always_valid.

Theorem C20_strip_after_any_history ds s :
  strip_markup (render (fold_left pal_step ds default_palette) s) = map aa_char s.
Proof. exact (strip_render_after_history ds s). Qed.
Print Assumptions C20_strip_after_any_history.

Example C20_example :
  render default_palette [Lys; Gly] =
  "<p style=""font-family:Courier;""> <br><span style=""color:blue"">K</span><span style=""color:green"">G</span></p>".
Proof. vm_compute. reflexivity. Qed.
