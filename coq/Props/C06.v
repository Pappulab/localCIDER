(* C06 — Omega and kappa_X are kappa of the recoded sequence. *)
From Coq Require Import QArith List String.
From LC Require Import Core.Residue Spec.Delta Model.Recode Proofs.Recode.
Import ListNotations.

Theorem C06_Omega_is_kappa_recoded s : Omega s = kappa (recode1 omega_group s).
Proof. exact (Omega_is_kappa_recoded s). Qed.

Theorem C06_Omega_eq_kappaX_PEDKR s : Omega s = kappaX [Pro; Glu; Asp; Lys; Arg] None s.
Proof. exact (Omega_eq_kappaX_PEDKR s). Qed.

Theorem C06_kappa_eq_kappaX_ED_KR s : kappa (pat s) = kappaX [Glu; Asp] (Some [Lys; Arg]) s.
Proof. exact (kappa_eq_kappaX_ED_KR s). Qed.
Print Assumptions C06_kappa_eq_kappaX_ED_KR.

Theorem C06_kappaX_swap g1 g2 s : g1 <> [] -> g2 <> [] ->
  (forall r, mem_aa r g1 = true -> mem_aa r g2 = false) ->
  (kappaX g2 (Some g1) s == kappaX g1 (Some g2) s)%Q.
Proof. exact (kappaX_swap g1 g2 s). Qed.
Print Assumptions C06_kappaX_swap.

Theorem C06_kappaX_member_order_irrelevant g1 g1' g2 g2' s :
  (forall r, mem_aa r g1 = mem_aa r g1') -> (forall r, mem_aa r g2 = mem_aa r g2') ->
  g2 <> [] -> g2' <> [] ->
  kappaX g1 (Some g2) s = kappaX g1' (Some g2') s /\ kappaX g1 None s = kappaX g1' None s.
Proof. exact (kappaX_members g1 g1' g2 g2' s). Qed.
Print Assumptions C06_kappaX_member_order_irrelevant.

Theorem C06_letter_case_irrelevant c :
  parse_member (String (lower_ascii c) EmptyString) = parse_member (String c EmptyString) /\
  parse_member (String (upper_ascii c) EmptyString) = parse_member (String c EmptyString).
Proof. exact (parse_member_case c). Qed.
Print Assumptions C06_letter_case_irrelevant.

Theorem C06_kappaX_complement g s : (kappaX (complement g) None s == kappaX g None s)%Q.
Proof. exact (kappaX_complement g s). Qed.
Print Assumptions C06_kappaX_complement.

Theorem C06_non_amino_acid_rejected g1 g2 s x : In x g1 -> parse_member x = None -> kappaX_api g1 g2 s = None.
Proof. exact (kappaX_api_rejects g1 g2 s x). Qed.
Theorem C06_non_amino_acid_rejected_2 g1 g2 s x : In x g2 -> parse_member x = None -> kappaX_api g1 (Some g2) s = None.
Proof. exact (kappaX_api_rejects2 g1 g2 s x). Qed.
Print Assumptions C06_non_amino_acid_rejected_2.

Theorem C06_Omega_sequence (s : list aa) i : (i < List.length s)%nat ->
  nth i (Omega_seq s) false = mem_aa (nth i s Ala) omega_group /\ List.length (Omega_seq s) = List.length s.
Proof. exact (Omega_seq_spec s i). Qed.
Print Assumptions C06_Omega_sequence.

Example C06_nonvacuous_reject : parse_member "X" = None /\ parse_member "ED" = None /\ parse_member "e" = Some Glu.
Proof. vm_compute. repeat split. Qed.
