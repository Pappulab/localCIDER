(* C03 — delta-max: attained, composition-only, the documented search. *)
From Coq Require Import QArith List Permutation.
From LC Require Import Core.Residue Spec.Delta Model.Delta Proofs.Delta Proofs.DeltaMax Proofs.Permutant.
Import ListNotations.

Theorem C03_model_is_spec l : (m_dmax l == dmax_of l)%Q.
Proof. exact (m_dmax_spec l). Qed.
Print Assumptions C03_model_is_spec.

Theorem C03_candidates_are_arrangements p n z l : In l (cands p n z) -> is_arr p n z l.
Proof. exact (cands_arrangement p n z l). Qed.
Print Assumptions C03_candidates_are_arrangements.

Theorem C03_dmax_is_max_of_family p n z l : In l (cands p n z) -> (delta l <= dmax p n z)%Q.
Proof. exact (dmax_is_max p n z l). Qed.
Print Assumptions C03_dmax_is_max_of_family.

Theorem C03_dmax_attained p n z : (p + n <> 0)%nat -> exists l, In l (cands p n z) /\ dmax p n z = delta l.
Proof. exact (dmax_attained p n z). Qed.
Print Assumptions C03_dmax_attained.

Theorem C03_dmax_uncharged z : dmax 0 0 z = 0%Q.
Proof. exact (dmax_uncharged z). Qed.

Theorem C03_composition_only l l' : comp l = comp l' -> dmax_of l = dmax_of l'.
Proof. exact (dmax_comp_only l l'). Qed.
Print Assumptions C03_composition_only.

Theorem C03_permutation_invariant l l' : Permutation l l' -> dmax_of l = dmax_of l'.
Proof. exact (dmax_perm l l'). Qed.
Print Assumptions C03_permutation_invariant.

Theorem C03_permutant_is_rearrangement s cand : Forall trit cand -> comp cand = comp (pat s) ->
  Permutation (permutant s cand) s.
Proof. exact (permutant_perm s cand). Qed.
Print Assumptions C03_permutant_is_rearrangement.

Theorem C03_permutant_has_candidate_pattern s cand : Forall trit cand -> comp cand = comp (pat s) ->
  pat (permutant s cand) = cand.
Proof. exact (permutant_pat s cand). Qed.
Print Assumptions C03_permutant_has_candidate_pattern.

Theorem C03_value_with_permutant s d c : m_dmax_arg (pat s) = (d, Some c) ->
  let t := permutant s c in
  Permutation t s /\ pat t = c /\ (delta (pat t) == d)%Q /\ (d == dmax_of (pat s))%Q.
Proof. exact (deltaMax_with_seq s d c). Qed.
Print Assumptions C03_value_with_permutant.

Theorem C03_uncharged_sequence_attains_0 l : (npos l + nneg l = 0)%Z -> (delta l == 0)%Q.
Proof. exact (delta_uncharged l). Qed.

(* regime boundary examples (n0 = 17 vs 18) and non-vacuity of C03_value_with_permutant *)
Example C03_regime_sizes :
  (length (cands 2 2 17), length (cands 2 2 18), length (cands 3 0 5), length (cands 3 2 0)) = (171, 49, 6, 4)%nat.
Proof. vm_compute. reflexivity. Qed.

Example C03_permutant_example :
  exists d c, m_dmax_arg (pat [Glu; Lys; Glu; Lys; Gly; Gly; Glu; Lys; Glu; Lys]) = (d, Some c) /\
              permutant [Glu; Lys; Glu; Lys; Gly; Gly; Glu; Lys; Glu; Lys] c =
              [Lys; Lys; Lys; Lys; Gly; Gly; Glu; Glu; Glu; Glu].
Proof. eexists. eexists. split; vm_compute; reflexivity. Qed.
