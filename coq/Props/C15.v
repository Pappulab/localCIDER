(* C15 — read-only queries are history-independent and never change the object. *)
From Coq Require Import List.
From LC Require Import Core.Residue Model.Html Model.Obj Proofs.Obj.
Import ListNotations.

Theorem C15_fresh_objects_satisfy_invariant s ph pal : Inv (fresh s ph pal).
Proof. exact (inv_fresh s ph pal). Qed.

Theorem C15_query_keeps_view o q : view (fst (qstep o q)) = view o.
Proof. exact (qstep_view o q). Qed.
Print Assumptions C15_query_keeps_view.

Theorem C15_query_keeps_invariant o q : Inv o -> Inv (fst (qstep o q)).
Proof. exact (qstep_inv o q). Qed.
Print Assumptions C15_query_keeps_invariant.

(* any history qs, then any query q: same answer as on a freshly constructed object; sequence,
   phosphosites and palette unchanged; the delta-max cache is unobservable *)
Theorem C15_history_independent o qs q : Inv o ->
  snd (qstep (run qs o) q) = snd (qstep (fresh_of o) q) /\ view (run qs o) = view o.
Proof. exact (query_history_independent o qs q). Qed.
Print Assumptions C15_history_independent.

Theorem C15_other_objects_do_not_interfere os iq : Forall Inv os ->
  Forall2 (fun o o' => view o' = view o /\ Inv o') os (step_family os iq).
Proof. exact (step_family_pointwise os iq). Qed.
Print Assumptions C15_other_objects_do_not_interfere.

(* the pinned tree violated it (get_kappa() then get_deltaMax(True)): defect D2, repaired in /repo *)
Theorem C15_pinned_cache_was_observable : exists s,
  snd (qstep_pinned (fst (qstep_pinned (fresh s [] default_palette) QKappa)) (QDmax true)) <>
  snd (qstep_pinned (fresh s [] default_palette) (QDmax true)).
Proof. exact history_dependence_refuted. Qed.

Example C15_invariant_nonvacuous :
  let o := run [QKappa; QOmega; QDelta; QHtml; QKappaAfter] (fresh [Glu; Lys; Glu; Lys; Gly; Gly; Glu; Lys; Glu; Lys] [] default_palette) in
  odmax o <> None /\ operm o = None.
Proof. exact inv_nonvacuous. Qed.
