(* C13 — sequence strings are normalised or rejected, never silently altered. *)
From Coq Require Import NArith List.
From LC Require Import Core.Residue Model.Normalise Proofs.Normalise.
Import ListNotations.
Local Open Scope N_scope.

Theorem C13_accept_iff upper isspace s w :
  normalise upper isspace s = Some w <->
  (w <> [] /\ map code w = filter is_aa_b (flat_map upper s) /\
   Forall (fun c => is_aa_b c = true \/ isspace c = true) (flat_map upper s)).
Proof. exact (accept_iff upper isspace s w). Qed.
Print Assumptions C13_accept_iff.

Theorem C13_reject_reasons upper isspace s : normalise upper isspace s = None ->
  s = [] \/ (exists c, In c (flat_map upper s) /\ is_aa_b c = false /\ isspace c = false) \/
  filter is_aa_b (flat_map upper s) = [].
Proof. exact (reject_reasons upper isspace s). Qed.
Print Assumptions C13_reject_reasons.

Theorem C13_normalised_word_is_fixed upper isspace :
  (forall a, upper (code a) = [code a]) ->
  forall s w, normalise upper isspace s = Some w -> normalise upper isspace (map code w) = Some w.
Proof. exact (normalise_idempotent upper isspace). Qed.
Print Assumptions C13_normalised_word_is_fixed.

Theorem C13_ascii_upper_fixes_residues a : upper_ascii_N (code a) = [code a].
Proof. exact (ascii_upper_fixes_residues a). Qed.

Theorem C13_ascii_lowercase_accepted a : upper_ascii_N (code a + 32) = [code a].
Proof. exact (ascii_lowercase_accepted a). Qed.

Theorem C13_ascii_other_characters_rejected c : c < 128 ->
  is_aa_b (match upper_ascii_N c with [u] => u | _ => c end) = false -> isspace_ascii_N c = false ->
  forall pre post, normalise upper_ascii_N isspace_ascii_N (pre ++ c :: post) = None.
Proof. exact (ascii_non_letters_rejected c). Qed.
Print Assumptions C13_ascii_other_characters_rejected.

Example C13_example :
  normalise upper_ascii_N isspace_ascii_N [101; 32; 75; 10; 103] = Some [Glu; Lys; Gly] /\
  normalise upper_ascii_N isspace_ascii_N [101; 49] = None /\ normalise upper_ascii_N isspace_ascii_N [32; 9] = None.
Proof. vm_compute. repeat split. Qed.
