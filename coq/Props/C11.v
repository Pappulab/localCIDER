(* C11 — complexity profiles: window count, positions, range, locality, WF = entropy. *)
From Coq Require Import Reals QArith List Permutation.
From LC Require Import Core.Residue Model.Complexity Proofs.Complexity Proofs.Entropy.
Import ListNotations.

Theorem C11_window_count w s l : (w <= List.length l)%nat ->
  List.length (windows w s l) = ((List.length l - w) / s + 1)%nat.
Proof. exact (windows_count w s l). Qed.
Print Assumptions C11_window_count.

Theorem C11_window_is_its_slice w s l i : (1 <= s)%nat -> (w <= List.length l)%nat -> (i < nwin (List.length l) w s)%nat ->
  List.length (window w s l i) = w /\ window w s l i = firstn w (skipn (i * s) l).
Proof. exact (window_is_slice w s l i). Qed.
Print Assumptions C11_window_is_its_slice.

Theorem C11_value_depends_on_its_window_only {X} (F : list aa -> X) w s l j d : (j < nwin (List.length l) w s)%nat ->
  nth j (map F (windows w s l)) d = F (window w s l j).
Proof. exact (values_are_per_window F w s l j d). Qed.
Print Assumptions C11_value_depends_on_its_window_only.

Theorem C11_positions_count N K : (0 <= K)%Z -> Z.of_nat (List.length (positions N K)) = K.
Proof. exact (positions_length N K). Qed.
Theorem C11_positions_within_1_N N K i : (1 <= K <= N)%Z -> (i < Z.to_nat K)%nat -> (1 <= nth i (positions N K) 0 <= N)%Z.
Proof. exact (positions_in_range N K i). Qed.
Print Assumptions C11_positions_within_1_N.
Theorem C11_positions_strictly_increasing N K i : (1 <= K <= N)%Z -> (S i < Z.to_nat K)%nat ->
  (nth i (positions N K) 0 < nth (S i) (positions N K) 0)%Z.
Proof. exact (positions_strictly_increasing N K i). Qed.
Print Assumptions C11_positions_strictly_increasing.

Theorem C11_LC_in_0_1 alph w ws win : List.length win = w -> (1 <= ws)%nat -> Forall (fun a => In a alph) win ->
  (0 <= lc_value (List.length alph) w ws win <= 1)%Q.
Proof. exact (lc_range alph w ws win). Qed.
Print Assumptions C11_LC_in_0_1.

Theorem C11_LZW_in_0_1 w win : List.length win = w -> (1 <= w)%nat -> (0 <= lzw_value w win <= 1)%Q.
Proof. exact (lzw_range w win). Qed.
Print Assumptions C11_LZW_in_0_1.

(* WF: the counts of the alphabet letters in a window add up to the window length … *)
Theorem C11_counts_sum_to_window alphabet win : NoDup alphabet -> Forall (fun a => In a alphabet) win ->
  fold_right Z.add 0%Z (wf_counts alphabet win) = Z.of_nat (List.length win).
Proof. intros H. exact (sumZ_counts alphabet H win). Qed.
Print Assumptions C11_counts_sum_to_window.

(* … so the Shannon entropy to base k is in [0,1] *)
Theorem C11_WF_nonneg counts w k : (0 < w)%Z -> Forall (fun c => (0 <= c <= w)%Z) counts -> (2 <= k)%nat ->
  (0 <= WF_R counts w k)%R.
Proof. exact (WF_nonneg counts w k). Qed.
Print Assumptions C11_WF_nonneg.
Theorem C11_WF_at_most_1 counts w k : (0 < w)%Z -> Forall (fun c => (0 <= c)%Z) counts ->
  fold_right Z.add 0%Z counts = w -> length counts = k -> (2 <= k)%nat -> (WF_R counts w k <= 1)%R.
Proof. exact (WF_le_1 counts w k). Qed.
Print Assumptions C11_WF_at_most_1.

Theorem C11_WF_homopolymer_is_0 pre post w k : (0 < w)%Z ->
  WF_R (repeat 0%Z pre ++ [w] ++ repeat 0%Z post) w k = 0%R.
Proof. exact (WF_homopolymer pre post w k). Qed.
Theorem C11_homopolymer_counts (x y : aa) n : count_aa y (repeat x n) = if aa_eqb y x then Z.of_nat n else 0%Z.
Proof. exact (wf_counts_homopolymer x y n). Qed.

Theorem C11_WF_permutation_invariant alphabet win win' : Permutation win win' ->
  wf_counts alphabet win = wf_counts alphabet win'.
Proof. exact (wf_counts_perm alphabet win win'). Qed.
Print Assumptions C11_WF_permutation_invariant.

Theorem C11_unknown_type_rejected allowed f alph k ua w s ws l : complexity allowed f alph COther k ua w s ws l = None.
Proof. exact (rejects_unknown_type allowed f alph k ua w s ws l). Qed.
Theorem C11_long_window_rejected allowed f alph ct k ua w s ws l : (List.length l < w)%nat ->
  complexity allowed f alph ct k ua w s ws l = None.
Proof. exact (rejects_long_window allowed f alph ct k ua w s ws l). Qed.
