(* C05 — patterning parameters see only charge classes; reversal / inversion invariance. *)
From Coq Require Import QArith List.
From LC Require Import Core.Residue Spec.Delta Model.Recode Model.SCD Proofs.Invariance Proofs.Recode Proofs.SCD.

(* same charge class -> same pattern -> same kappa, delta, delta-max, SCD data *)
Theorem C05_respell s t : pat s = pat t ->
  delta (pat s) = delta (pat t) /\ dmax_of (pat s) = dmax_of (pat t) /\ kappa (pat s) = kappa (pat t).
Proof. exact (respell_invariant s t). Qed.
Print Assumptions C05_respell.

Theorem C05_scd_respell s t : pat s = pat t -> scd_coeffs (pat s) = scd_coeffs (pat t).
Proof. intros H. exact (f_equal scd_coeffs H). Qed.

Theorem C05_Omega_respell s t :
  map (fun r => mem_aa r omega_group) s = map (fun r => mem_aa r omega_group) t -> Omega s = Omega t.
Proof. exact (Omega_respell s t). Qed.
Print Assumptions C05_Omega_respell.

Theorem C05_delta_rev l : (delta (rev l) == delta l)%Q.
Proof. exact (delta_rev l). Qed.
Print Assumptions C05_delta_rev.

Theorem C05_delta_inv l : delta (map Z.opp l) = delta l.
Proof. exact (delta_inv l). Qed.
Print Assumptions C05_delta_inv.

Theorem C05_dmax_rev l : dmax_of (rev l) = dmax_of l.
Proof. exact (dmax_rev l). Qed.
Print Assumptions C05_dmax_rev.

Theorem C05_dmax_swap p n z : (dmax n p z == dmax p n z)%Q.
Proof. exact (dmax_swap p n z). Qed.
Print Assumptions C05_dmax_swap.

Theorem C05_dmax_inv l : (dmax_of (map Z.opp l) == dmax_of l)%Q.
Proof. exact (dmax_inv l). Qed.
Print Assumptions C05_dmax_inv.

Theorem C05_kappa_rev l : (kappa (rev l) == kappa l)%Q.
Proof. exact (kappa_rev l). Qed.
Print Assumptions C05_kappa_rev.

Theorem C05_kappa_inv l : (kappa (map Z.opp l) == kappa l)%Q.
Proof. exact (kappa_inv l). Qed.
Print Assumptions C05_kappa_inv.

Theorem C05_scd_rev l : scd_coeffs (rev l) = scd_coeffs l.
Proof. exact (scd_rev l). Qed.
Print Assumptions C05_scd_rev.

Theorem C05_scd_inv l : scd_coeffs (map Z.opp l) = scd_coeffs l.
Proof. exact (scd_inv l). Qed.
Print Assumptions C05_scd_inv.

Theorem C05_Omega_rev s : (Omega (rev s) == Omega s)%Q.
Proof. exact (Omega_rev s). Qed.
Print Assumptions C05_Omega_rev.

Theorem C05_Omega_inv s : Omega (map invert_res s) = Omega s.
Proof. exact (Omega_inv s). Qed.
Print Assumptions C05_Omega_inv.

(* reversal / inversion of residues act on the pattern as rev / opp *)
Theorem C05_pat_rev s : pat (rev s) = rev (pat s).
Proof. exact (pat_rev s). Qed.
Theorem C05_pat_invert s : pat (map invert_res s) = map Z.opp (pat s).
Proof. exact (pat_invert s). Qed.
