(* C04 — composition parameters equal their published per-residue definitions. *)
From Coq Require Import Qabs List Permutation.
From LC Require Import Core.Residue Core.QTools Spec.Tables Model.Composition Proofs.Composition.
Import ListNotations.

(* every mean parameter is (sum of the per-residue table) / N by definition (Model.Composition.meanT);
   hence permutation invariance: *)
Theorem C04_permutation_invariant t s s' : Permutation s s' -> meanT t s == meanT t s'.
Proof. exact (meanT_perm t s s'). Qed.
Print Assumptions C04_permutation_invariant.

Theorem C04_molecular_weight_def s : molw s = sumQ (map mw s) - 18 * (lenQ s - 1).
Proof. reflexivity. Qed.

Theorem C04_molecular_weight_permutation s s' : Permutation s s' -> molw s == molw s'.
Proof. exact (molw_perm s s'). Qed.
Print Assumptions C04_molecular_weight_permutation.

Theorem C04_FCR_is_fpos_plus_fneg s : FCR s == fpos s + fneg s.
Proof. exact (FCR_eq s). Qed.
Print Assumptions C04_FCR_is_fpos_plus_fneg.

Theorem C04_NCPR_is_fpos_minus_fneg s : NCPR s == fpos s - fneg s.
Proof. exact (NCPR_eq s). Qed.
Print Assumptions C04_NCPR_is_fpos_minus_fneg.

Theorem C04_abs_NCPR_le_FCR s : Qabs (NCPR s) <= FCR s.
Proof. exact (abs_NCPR_le_FCR s). Qed.
Print Assumptions C04_abs_NCPR_le_FCR.

Theorem C04_FCR_le_1 s : s <> [] -> FCR s <= 1.
Proof. exact (FCR_le_1 s). Qed.
Print Assumptions C04_FCR_le_1.

Theorem C04_counts_sum_to_length s : (countPos s + countNeg s + countNeut s = Z.of_nat (List.length s))%Z.
Proof. exact (counts_sum s). Qed.
Print Assumptions C04_counts_sum_to_length.

Theorem C04_fractions_are_counts s :
  fpos s == inject_Z (countPos s) / lenQ s /\ fneg s == inject_Z (countNeg s) / lenQ s.
Proof. exact (conj (fpos_is_count s) (fneg_is_count s)). Qed.
Print Assumptions C04_fractions_are_counts.

Theorem C04_amino_acid_fractions_sum_to_1 s : s <> [] -> sumQ (map (fun r => aafrac r s) all20) == 1.
Proof. exact (fractions_sum_1 s). Qed.
Print Assumptions C04_amino_acid_fractions_sum_to_1.

Theorem C04_uversky_is_KD_over_9 s : uversky s == meanKD s / 9.
Proof. exact (uversky_eq s). Qed.
Print Assumptions C04_uversky_is_KD_over_9.

Theorem C04_mean_net_charge s : mean_net_charge s = Qabs (NCPR s).
Proof. reflexivity. Qed.

Theorem C04_expanding_adds_proline s : FER s == FCR s + aafrac Pro s.
Proof. exact (FER_eq s). Qed.
Print Assumptions C04_expanding_adds_proline.

Theorem C04_KD_shifted_to_0_9 a : 0 <= kd_shifted a <= 9.
Proof. exact (kd_shifted_range a). Qed.

Example C04_example : Qred (meanKD [Ala; Arg; Ile]) = (51 # 10) /\ Qred (molw [Gly; Gly]) = (661 # 5).
Proof. vm_compute. split; reflexivity. Qed.
