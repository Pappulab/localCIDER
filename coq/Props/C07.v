(* C07 — SCD = (1/N) sum_{m>n} q_m q_n sqrt(m-n).  The exact integer data of the formula are the
   distance coefficients c_d = sum_{m-n=d} q_m q_n (Model.SCD.scd_coeffs); the square roots are
   enclosed by rationals inside Coq when the implementation's value is compared (check_scd). *)
From Coq Require Import Reals List.
From LC Require Import Core.Residue Core.Lists Model.SCD Proofs.SCD Proofs.SCDReal.
Import ListNotations.

Theorem C07_coefficient_form l : SCD_R l = (coefsumR l / INR (length l))%R.
Proof. exact (SCD_coeff_form l). Qed.
Print Assumptions C07_coefficient_form.

Theorem C07_enclosure l : l <> [] ->
  (Q2R (fst (scd_bounds l)) <= SCD_R l <= Q2R (snd (scd_bounds l)))%R.
Proof. exact (scd_bounds_sound l). Qed.
Print Assumptions C07_enclosure.

Theorem C07_few_charges_coeffs l : (cnt nzb l <= 1)%Z -> Forall (fun c => c = 0%Z) (scd_coeffs l).
Proof. exact (scd_few_charges l). Qed.
Print Assumptions C07_few_charges_coeffs.

Theorem C07_few_charges l : (cnt nzb l <= 1)%Z -> SCD_R l = 0%R.
Proof. exact (SCD_few_charges l). Qed.
Print Assumptions C07_few_charges.

Theorem C07_depends_on_pattern_only s t : pat s = pat t -> SCD_R (pat s) = SCD_R (pat t).
Proof. intros H. exact (f_equal SCD_R H). Qed.

Theorem C07_loop_model_agrees_upto_7 :
  forallb (fun k => forallb (fun l => lZ_eqb (m_scd_coeffs l) (scd_coeffs l)) (all_patterns k)) (seq 0 8) = true.
Proof. exact m_scd_coeffs_agree_upto_7. Qed.
