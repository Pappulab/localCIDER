(* C19 — plots place sequences at true coordinates in the regions that classify them. *)
From Coq Require Import QArith List.
From LC Require Import Spec.Polygons Model.PlotCheck Proofs.Polygons.

(* every admissible pair of fractions lies inside (boundary included) the drawn polygon of the region
   the classifier assigns to it, and that region is one of 1..5 *)
Theorem C19_marker_in_own_region fp fn : 0 <= fp -> 0 <= fn -> fp + fn <= 1 ->
  inside (poly (regionFrac fp fn)) (fp, fn) /\ (1 <= regionFrac fp fn <= 5)%Z.
Proof. exact (marker_in_own_region fp fn). Qed.
Print Assumptions C19_marker_in_own_region.

(* conversely a point strictly inside a drawn polygon is classified into that region: the five regions
   drawn are the ones the classifier uses (they overlap only on their common boundary lines) *)
Theorem C19_interior_classifies r fp fn : (1 <= r <= 5)%Z -> inside_strict (poly r) (fp, fn) -> regionFrac fp fn = r.
Proof. exact (interior_classifies r fp fn). Qed.
Print Assumptions C19_interior_classifies.

Example C19_example : regionFrac (4 # 10) (4 # 10) = 3%Z /\ inside_b (poly 3) (4 # 10, 4 # 10) = true
                      /\ inside_b (poly 4) (4 # 10, 4 # 10) = false.
Proof. vm_compute. repeat split. Qed.
