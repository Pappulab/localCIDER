(* C02 — delta is the Das–Pappu blob-averaged charge-asymmetry variance.
   Spec.Delta.delta is the statement; Model.Delta.m_delta is the code-shaped loop that the
   correspondence runs against get_delta(); Tie: charge_tie.v, delta_formulas_tie.v. *)
From Coq Require Import QArith List.
From LC Require Import Core.Residue Spec.Delta Model.Delta Proofs.Delta.
Import ListNotations.

Theorem C02_model_is_spec l : (m_delta l == delta l)%Q.
Proof. exact (m_delta_spec l). Qed.
Print Assumptions C02_model_is_spec.

Theorem C02_blob_longer_than_sequence_contributes_0 w l : (length l < w)%nat -> (deltaForm w l == 0)%Q.
Proof. exact (deltaForm_too_long w l). Qed.
Print Assumptions C02_blob_longer_than_sequence_contributes_0.

Theorem C02_delta_short l : (length l < 5)%nat -> (delta l == 0)%Q.
Proof. exact (delta_short l). Qed.
Print Assumptions C02_delta_short.

Theorem C02_delta_nonneg l : (0 <= delta l)%Q.
Proof. exact (delta_nonneg l). Qed.
Print Assumptions C02_delta_nonneg.

Theorem C02_sigma_uncharged l : (npos l + nneg l = 0)%Z -> sigma l = 0%Q.
Proof. exact (sigma_uncharged l). Qed.
Print Assumptions C02_sigma_uncharged.

Theorem C02_delta_uncharged l : (npos l + nneg l = 0)%Z -> (delta l == 0)%Q.
Proof. exact (delta_uncharged l). Qed.
Print Assumptions C02_delta_uncharged.

(* non-vacuity / sanity: a charged 10-mer with neutrals has the hand-computed value *)
Example C02_example : Qred (m_delta (pat [Glu; Lys; Glu; Lys; Gly; Gly; Glu; Lys; Glu; Lys])) = (1 # 675)%Q.
Proof. vm_compute. reflexivity. Qed.
