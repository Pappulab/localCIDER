(* C18 — the Wang–Landau run obeys the WL update rule and its outputs are self-consistent. *)
From Coq Require Import QArith List.
From LC Require Import Core.Residue Model.DeltaCheck Model.WL Proofs.WL.
Import ListNotations.

(* the invariant: rearrangement of the input; vector lengths; the occupied bin exists; the histogram
   counts the counted steps since its last reset; g = g at the start of the iteration + ln f x histogram *)
Theorem C18_initial_state c input start idx0 : same_multiset start input = true -> (idx0 < nb_actual c)%nat ->
  WInv c input (wl_init c start idx0).
Proof. exact (init_inv c input start idx0). Qed.

Theorem C18_step_preserves_invariant c input s e : WInv c input s -> side_ok c s e = true -> WInv c input (wl_step c s e).
Proof. exact (step_inv c input s e). Qed.
Print Assumptions C18_step_preserves_invariant.

Theorem C18_invariant_over_any_run c input es s s' : WInv c input s -> wl_run c s es = Some s' -> WInv c input s'.
Proof. exact (run_inv c input es s s'). Qed.
Print Assumptions C18_invariant_over_any_run.

Theorem C18_never_moves_outside_range c s e : side_ok c s e = true -> e_acc e = true -> in_range c (e_idx e) = true.
Proof. exact (accepted_in_range c s e). Qed.
Print Assumptions C18_never_moves_outside_range.

Theorem C18_accept_moves_reject_stays c s e :
  (e_acc e = true -> cur (wl_step c s e) = e_prop e /\ idx_old (wl_step c s e) = e_idx e) /\
  (e_acc e = false -> cur (wl_step c s e) = cur s /\ idx_old (wl_step c s e) = idx_old s).
Proof. exact (conj (accepted_moves_to_proposal c s e) (rejected_stays c s e)). Qed.

Theorem C18_f_and_histogram_schedule c s e :
  let h' := if e_skip e then hv s else upd (hv s) (if e_acc e then e_idx e else idx_old s) (fun x => (x + 1)%Z) in
  (kexp (wl_step c s e) = S (kexp s) /\ hv (wl_step c s e) = zeros (nb_actual c) /\ niter (wl_step c s e) = S (niter s)) \/
  (kexp (wl_step c s e) = kexp s /\ hv (wl_step c s e) = h' /\ niter (wl_step c s e) = niter s).
Proof. exact (f_schedule c s e). Qed.

Theorem C18_f_changes_only_at_a_flat_scheduled_check c s e : kexp (wl_step c s e) <> kexp s ->
  (S (nstep s) mod nflat c = 0)%nat /\
  is_flat c (if e_skip e then hv s else upd (hv s) (if e_acc e then e_idx e else idx_old s) (fun x => (x + 1)%Z)) = true.
Proof. exact (f_changes_only_when_flat c s e). Qed.
Print Assumptions C18_f_changes_only_at_a_flat_scheduled_check.

Theorem C18_flat_means_every_bin_above_criterion c h : is_flat c h = true -> (0 < nb_target c)%nat ->
  List.length (hlocal c h) = nb_target c ->
  forall x, In x (hlocal c h) -> (crit c * inject_Z (sumZ (hlocal c h)) <= inject_Z x * inject_Z (Z.of_nat (nb_target c)))%Q.
Proof. exact (flat_means c h). Qed.
Print Assumptions C18_flat_means_every_bin_above_criterion.

Theorem C18_bin_centres_are_midpoints c i : (0 < nb_actual c)%nat ->
  (centre c i == (inject_Z (Z.of_nat i) + (1 # 2)) / inject_Z (Z.of_nat (nb_actual c)))%Q.
Proof. exact (centre_midpoint c i). Qed.
Print Assumptions C18_bin_centres_are_midpoints.

Theorem C18_relevant_window c : (0 < nb_target c)%nat -> (rmax c - rmin c + 1 = nb_target c)%nat.
Proof. exact (relevant_window_size c). Qed.

(* the requested range: an aligned request [r/N, (r+nb)/N] selects exactly the bins whose centre lies in it, and
   __init__'s arithmetic (geom_of: binWidth, round(1/binWidth), argmin of the centre distances) recovers N and r from
   it for every partition up to 24 bins *)
Theorem C18_relevant_window_is_the_requested_range c (bmin bmax : Q) i : (0 < nb_actual c)%nat -> (0 < nb_target c)%nat ->
  (bmin == (Z.of_nat (rmin c) # Pos.of_nat (nb_actual c)))%Q ->
  (bmax == (Z.of_nat (rmin c + nb_target c) # Pos.of_nat (nb_actual c)))%Q ->
  (in_range c i = true <-> (bmin < centre c i /\ centre c i < bmax)%Q).
Proof. exact (aligned_window c bmin bmax i). Qed.
Print Assumptions C18_relevant_window_is_the_requested_range.

Theorem C18_geometry_of_an_aligned_request na r nb : (1 <= na <= 24)%nat -> (1 <= nb)%nat -> (r + nb <= na)%nat ->
  geom_of nb (Z.of_nat r # Pos.of_nat na) (Z.of_nat (r + nb) # Pos.of_nat na) = (na, r).
Proof. exact (geom_of_aligned na r nb). Qed.
Print Assumptions C18_geometry_of_an_aligned_request.

(* non-vacuity: an event on a small configuration satisfies the side conditions *)
Example C18_nonvacuous :
  let c := {| nb_target := 2; nb_actual := 2; rmin := 0; nflat := 2; crit := 1 # 10 |} in
  exists s', wl_run c (wl_init c [Glu; Lys; Glu; Lys; Gly; Gly; Glu; Lys] 1)
     [ {| e_prop := [Glu; Lys; Glu; Lys; Gly; Gly; Glu; Lys]; e_idx := 0; e_skip := false; e_ap := 1; e_u := 1 # 2; e_acc := true |} ] = Some s'.
Proof. cbn zeta. eexists. vm_compute. reflexivity. Qed.
