(* C10 — sliding-window profiles report each window's statistic at its centre position. *)
From Coq Require Import QArith List.
From LC Require Import Core.Residue Core.Lists Core.QTools Spec.Delta Model.Composition Model.Windows Proofs.Windows.
Import ListNotations.

Theorem C10_flanks w N : (1 <= w <= N)%nat -> flanks w N = (((w - 1) / 2)%nat, (w / 2)%nat).
Proof. exact (flank_spec w N). Qed.
Print Assumptions C10_flanks.

Theorem C10_one_column_per_residue {A} (stat : list A -> Q) w (l : list A) r :
  (1 <= w <= length l)%nat -> profile stat w l = Some r -> length r = length l.
Proof. intros H. exact (profile_length stat w l H r). Qed.
Print Assumptions C10_one_column_per_residue.

Theorem C10_window_value_at_centre {A} (stat : list A -> Q) w (l : list A) r i :
  (1 <= w <= length l)%nat -> profile stat w l = Some r -> (i < length l + 1 - w)%nat ->
  nth (i + (w - 1) / 2) r 0%Q = stat (blob w i l).
Proof. intros H. exact (profile_nth stat w l H r i). Qed.
Print Assumptions C10_window_value_at_centre.

Theorem C10_leading_positions_zero {A} (stat : list A -> Q) w (l : list A) r j :
  (1 <= w <= length l)%nat -> profile stat w l = Some r -> (j < (w - 1) / 2)%nat -> nth j r 0%Q = 0%Q.
Proof. intros H. exact (profile_leading_zero stat w l H r j). Qed.
Print Assumptions C10_leading_positions_zero.

Theorem C10_trailing_positions_zero {A} (stat : list A -> Q) w (l : list A) r j :
  (1 <= w <= length l)%nat -> profile stat w l = Some r -> (length l - w / 2 <= j)%nat -> nth j r 0%Q = 0%Q.
Proof. intros H. exact (profile_trailing_zero stat w l H r j). Qed.
Print Assumptions C10_trailing_positions_zero.

Theorem C10_longer_window_rejected {A} (stat : list A -> Q) w (l : list A) :
  (length l < w)%nat -> profile stat w l = None.
Proof. exact (profile_rejects stat w l). Qed.
Print Assumptions C10_longer_window_rejected.

Theorem C10_full_window {A} (stat : list A -> Q) (l : list A) : l <> [] ->
  profile stat (length l) l = Some (repeat 0%Q ((length l - 1) / 2) ++ [stat l] ++ repeat 0%Q (length l / 2)).
Proof. exact (profile_full_window stat l). Qed.
Print Assumptions C10_full_window.

Theorem C10_full_window_is_global_parameter s :
  ncpr_w (length s) (pat s) == NCPR s /\ fcr_w (length s) (pat s) == FCR s /\
  sigma_w (length s) (pat s) = sigma (pat s) /\ hydro_w (length s) s = uversky s /\
  forall g, density_w g (length s) s = meanT (fun a => ind (mem_aa a g)) s.
Proof.
  exact (conj (full_window_NCPR s) (conj (full_window_FCR s) (conj (full_window_sigma s)
        (conj (full_window_hydropathy s) (fun g => full_window_density g s))))).
Qed.
Print Assumptions C10_full_window_is_global_parameter.

Theorem C10_delta_from_sigma_profiles w l :
  (deltaForm w l == sumQ (map (fun v => sqQ (sigma l - v)) (map (sigma_w w) (blobs w l)))
                    / inject_Z (len (blobs w l)))%Q.
Proof. exact (deltaForm_from_sigma_profile w l). Qed.
Print Assumptions C10_delta_from_sigma_profiles.

Example C10_example :
  lin_NCPR 4 [Glu; Lys; Glu; Lys; Gly; Gly] = Some [0; 0 # 4; 1 # 4; 0 # 4; 0; 0]%Q.
Proof. vm_compute. reflexivity. Qed.
