(* C08 — diagram-of-states region: total, follows the FCR/NCPR thresholds, composition-only,
   and the binary64 decisions agree with exact rational evaluation including at the boundaries. *)
From Coq Require Import QArith String.
From LC Require Import Spec.Region Model.Region Proofs.Region Proofs.RegionFloat.
Local Open Scope Z_scope.

Theorem C08_rational_cascade_is_spec p n N : 0 < N -> 0 <= p -> 0 <= n -> p + n <= N ->
  regionQ_counts p n N = regionZ p n N.
Proof. exact (cascadeQ_eq_spec p n N). Qed.
Print Assumptions C08_rational_cascade_is_spec.

Theorem C08_total p n N : 1 <= regionZ p n N <= 5.
Proof. exact (region_total p n N). Qed.
Print Assumptions C08_total.

Theorem C08_never_raises p n N : 0 < N -> 0 <= p -> 0 <= n -> p + n <= N -> 1 <= regionQ_counts p n N <= 5.
Proof. exact (region_no_raise p n N). Qed.
Print Assumptions C08_never_raises.

Theorem C08_regions_4_5_by_majority p n N : 0 < N -> 0 <= p -> 0 <= n ->
  (regionZ p n N = 5 -> n < p) /\ (regionZ p n N = 4 -> p < n).
Proof. exact (region_45_strict p n N). Qed.
Print Assumptions C08_regions_4_5_by_majority.

Theorem C08_float_cascade_is_spec_upto_200 p n N : 0 < N <= 200 -> 0 <= p -> 0 <= n -> p + n <= N ->
  regionF_counts p n N = regionZ p n N.
Proof. exact (cascadeF_eq_spec_upto_200 p n N). Qed.
Print Assumptions C08_float_cascade_is_spec_upto_200.

Theorem C08_annotation_total r : 1 <= r <= 5 -> annotation r <> "ERROR, NOT A REAL REGION"%string.
Proof. exact (annotation_total r). Qed.

Example C08_boundaries : (regionZ 1 0 4, regionZ 5 2 20, regionZ 7 0 20, regionZ 6 2 20, regionZ 8 1 20, regionZ 1 8 20)
                         = (2, 2, 2, 3, 5, 4).
Proof. vm_compute. reflexivity. Qed.
