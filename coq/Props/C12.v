(* C12 — reduced alphabets implement the documented residue partitions.
   Theorems about Spec/Model only; the generated cascade enters through
   Props/Tie/alphabets_tie.v (reduce_tie: the source's cascade is a valid_reduction). *)
From Coq Require Import List ZArith String.
From LC Require Import Core.Residue Spec.Alphabets Model.Alphabets Proofs.Alphabets.

(* every map that sends each residue to a fixed member of its documented group … *)
Theorem C12_rep_in_own_group k f : valid_reduction k f ->
  forall r, exists g, group_of k r = Some g /\ In r g /\ In (f r) g.
Proof. exact (f_in_own_group k f). Qed.
Print Assumptions C12_rep_in_own_group.

Theorem C12_reduce_length k f : valid_reduction k f -> forall s, List.length (map f s) = List.length s.
Proof. intros _. exact (reduce_length f). Qed.
Print Assumptions C12_reduce_length.

Theorem C12_reduce_concat k f : valid_reduction k f -> forall s t, map f (s ++ t) = map f s ++ map f t.
Proof. intros _. exact (reduce_app f). Qed.
Print Assumptions C12_reduce_concat.

Theorem C12_reduce_idempotent k f : valid_reduction k f -> forall s, map f (map f s) = map f s.
Proof. exact (reduce_idem k f). Qed.
Print Assumptions C12_reduce_idempotent.

Theorem C12_size_rejected allowed f k s : ~ In k allowed -> reduce_predef allowed f k s = None.
Proof. exact (predef_rejects_notin allowed f k s). Qed.
Print Assumptions C12_size_rejected.

Theorem C12_size_accepted allowed f k s : In k allowed -> reduce_predef allowed f k s = Some (map (f k) s).
Proof. exact (predef_accepts_in allowed f k s). Qed.
Print Assumptions C12_size_accepted.

Theorem C12_user_accept_iff u : user_accepted u = true <-> forall r, exists r', ulookup u r = Some r'.
Proof. exact (user_accept_iff u). Qed.
Print Assumptions C12_user_accept_iff.

Theorem C12_user_applied_residue_by_residue u s out alph : reduce_user u s = Some (out, alph) ->
  out = map (uapply u) s /\ List.length out = List.length s /\ (forall r, ulookup u r = Some (uapply u r)).
Proof. exact (user_apply_is_map u s out alph). Qed.
Print Assumptions C12_user_applied_residue_by_residue.

Theorem C12_user_rejected u s : user_accepted u = false -> reduce_user u s = None.
Proof. exact (user_reject u s). Qed.
Print Assumptions C12_user_rejected.

Theorem C12_user_alphabet u s out alph : reduce_user u s = Some (out, alph) ->
  NoDup alph /\ forall a, In a alph <-> exists r, uapply u r = a.
Proof. exact (user_alphabet_is_image u s out alph). Qed.
Print Assumptions C12_user_alphabet.

(* non-vacuity: the documented tables satisfy valid_reduction for a concrete map *)
Example C12_nonvacuous : valid_reduction_b 2 (fun r => if mem_aa r (grp "EDNQKRH") then Glu else Leu) = true.
Proof. exact C12_example. Qed.
