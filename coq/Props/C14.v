(* C14 — sequence files parse to exactly their residues. *)
From Coq Require Import List String Ascii.
From LC Require Import Core.Residue Model.Parser Proofs.Parser.
Import ListNotations.

(* Any file whose lines are: blank/whitespace lines, at most one header line (optional leading
   whitespace, '>', anything), and sequence lines made of residue letters, blanks, digits (and '*'),
   every line but possibly the last terminated by a newline.  If the residue/star tokens of the
   sequence lines are the residues w, optionally followed by one final '*', the file parses to w. *)
Theorem C14_layout_parses kls ls1 last w :
  Forall (fun kl => line_ok (fst kl) (snd kl)) kls -> Forall plain (map snd kls) -> (nheaders kls <= 1)%nat ->
  map snd kls = ls1 ++ [last] ->
  (List.concat (map line_toks kls) = map Some w \/ List.concat (map line_toks kls) = map Some w ++ [None]) ->
  parse (join ls1 last) = Some w.
Proof. exact (layout_parses kls ls1 last w). Qed.
Print Assumptions C14_layout_parses.

(* The same for Windows files and any whitespace padding: every line may be followed by \n or \r\n (freely mixed), and
   may carry leading / trailing whitespace of any kind str.strip() removes (tabs, form feeds, blanks, \x1c-\x1f ...)
   around a body of one of the three kinds above; the last line with or without its terminator. *)
Theorem C14_layout_parses_padded_crlf (pls : list pline) (lastl : pline) w :
  Forall pline_ok pls -> pline_ok lastl ->
  let kls := map (fun x => (pl_kind x, pl_body x)) (pls ++ [lastl]) in
  (nheaders kls <= 1)%nat ->
  (List.concat (map line_toks kls) = map Some w \/ List.concat (map line_toks kls) = map Some w ++ [None]) ->
  forall final_newline : bool,
  parse (joinT (map (fun x => (pl_text x, pl_term x)) pls ++ (if final_newline then [(pl_text lastl, pl_term lastl)] else []))
               (if final_newline then [] else pl_text lastl)) = Some w.
Proof. exact (layout_parses_padded pls lastl w). Qed.
Print Assumptions C14_layout_parses_padded_crlf.

(* a sequence line of residues, blanks and digits contributes exactly its residues … *)
Theorem C14_line_tokens_are_residues cs : forallb okc cs = true -> toks cs = map Some (res_of cs).
Proof. exact (toks_okc cs). Qed.
Print Assumptions C14_line_tokens_are_residues.
(* … however it is broken up: *)
Theorem C14_tokens_concatenate a b : toks (a ++ b) = toks a ++ toks b.
Proof. exact (toks_app a b). Qed.
Theorem C14_residue_word w : res_of (map aa_char w) = w.
Proof. exact (res_of_word w). Qed.

Theorem C14_second_header_rejected text :
  (2 <= List.length (filter is_header_b (split_nl (unl false text))))%nat -> parse text = None.
Proof. exact (second_header_rejected text). Qed.
Print Assumptions C14_second_header_rejected.

Theorem C14_other_character_rejected text l c : In l (split_nl (unl false text)) -> is_header_b l = false ->
  In c l -> okstar c = false -> is_ws c = false -> parse text = None.
Proof. exact (bad_character_rejected text l c). Qed.
Print Assumptions C14_other_character_rejected.

Theorem C14_repeated_star_rejected acc : (2 <= List.length (filter is_star acc))%nat -> final_validation acc = None.
Proof. exact (final_two_stars acc). Qed.

Theorem C14_non_final_star_rejected a x b : final_validation (a ++ None :: b ++ [Some x]) = None.
Proof. exact (final_nonterminal_star a x b). Qed.
Print Assumptions C14_non_final_star_rejected.

(* non-vacuity: a FASTA file with numbering, 10-residue groups, a blank line and a final '*' *)
Example C14_example_windows_tabs :
  parse (list_ascii_of_string ">sp|X test " ++ [cr; nl; "009"%char] ++ list_ascii_of_string " 1 EKEKGSGSAA TY" ++
         ["009"%char; cr; nl; nl; "012"%char] ++ list_ascii_of_string "13 PP*" ++ [cr; nl])
  = Some [Glu; Lys; Glu; Lys; Gly; Ser; Gly; Ser; Ala; Ala; Thr; Tyr; Pro; Pro].
Proof. exact layout_padded_example. Qed.

Example C14_example :
  parse (list_ascii_of_string
    (">sp|X  test" ++ String nl ("    1 EKEKGSGSAA TY" ++ String nl ("" ++ String nl ("   13 PP*" ++ String nl "")))))
  = Some [Glu; Lys; Glu; Lys; Gly; Ser; Gly; Ser; Ala; Ala; Thr; Tyr; Pro; Pro].
Proof. vm_compute. reflexivity. Qed.
