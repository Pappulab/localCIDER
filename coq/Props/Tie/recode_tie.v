(* Tie (C05, C06): TWENTY_AAs lists the 20 residues (the recoding functions themselves: minipy_kappax_tie.v). *)
From Coq Require Import List.
From LC Require Import Core.Residue Gen.GTables.

Lemma twenty_tie :
  forallb (fun r => mem_aa r GTables.twenty_aas) all20 = true /\ List.length GTables.twenty_aas = 20%nat.
Proof. vm_compute. repeat split. Qed.
