(* Tie (C10) — SEMANTIC: Sequence.linearDistOfHydropathy, translated from the working tree on every run into a Core.MiniPy
   term: the guard, the flank arithmetic, the loop that looks every residue up in the 0-to-1 Kyte-Doolittle table (through
   the one-to-three letter dictionary of the data module), the loop over the windows (sum of the window / window size) and
   the two rows.  get_KD_uversky() is a primitive returning ANY table kd on the twenty three-letter names (the table
   itself is tied by tables_tie).  For EVERY sequence and window >= 1: rejection exactly when the window is longer than the
   sequence, else positions 1..N and flank_start zeros, one value per full window = (sum of kd over THAT window) / w,
   flank_end zeros, with the flanks of Model.Windows.flanks. *)
From Coq Require Import List String QArith.
From LC Require Import Core.Residue Core.Lists Core.QTools Core.MiniPy Core.MiniPyData Core.MiniPyExec Core.MiniPyLin Model.Windows Gen.GMiniPy.
Import ListNotations.
Local Open Scope Z_scope.

Section Hydro.
Variable s : list aa.                 (* self.seq *)
Variable w : nat.                     (* bloblen *)
Variable kd : aa -> Q.                (* the table get_KD_uversky() returns, residue by residue *)
Local Notation N := (List.length s).
Local Notation cs := (map aa_char s).

Definition three_val (a : aa) : value := VStr (list_ascii_of_string (aa_three a)).
Definition kd_table : value := VDict (map (fun a => (three_val a, VQ (kd a))) all20).
Fixpoint sum_vals (l : list value) : option Q :=
  match l with [] => Some 0%Q | v :: l' => match as_Q v, sum_vals l' with Some x, Some y => Some (Qred (x + y)) | _, _ => None end end.

Definition hy_prim (name : string) (args : list value) : value :=
  if String.eqb name "__check_window_to_length" then
    match args with
    | [b] => match MiniPy.exec noprim 0 g_check_window [("self.seq"%string, VStr cs); ("bloblen"%string, b)] with
             | ONorm _ => VNone | ORaise => VExc | _ => VErr end
    | _ => VErr
    end
  else if String.eqb name "int_div" then
    match args with [VInt a; VInt b] => if b =? 0 then VExc else VInt (Z.quot a b) | _ => VErr end
  else if String.eqb name "np.vstack" then
    match args with [VList [a; b]] => VList [a; b] | _ => VErr end
  else if String.eqb name "get_KD_uversky" then match args with [] => kd_table | _ => VErr end
  else if String.eqb name "sum" then match args with [VList l] => match sum_vals l with Some q => VQ q | None => VErr end | _ => VErr end
  else if String.eqb name "qdiv" then
    match args with
    | [a; b] => match as_Q a, as_Q b with
                | Some x, Some y => if Qeq_bool y 0 then VExc else VQ (Qred (x / y))
                | _, _ => VErr
                end
    | _ => VErr
    end
  else VErr.
Local Notation exec := (MiniPy.exec hy_prim 0).

Definition hy_spine : list stmt := Eval vm_compute in spine g_linHydro.
Definition hy_chain_body : stmt := Eval vm_compute in match nth 7 hy_spine SSkip with SFor _ _ b => b | _ => SSkip end.
Definition hy_body : stmt := Eval vm_compute in match nth 8 hy_spine SSkip with SFor _ _ b => b | _ => SSkip end.
Definition one_to_three : value := Eval vm_compute in match hy_chain_body with SAppend _ (EIndex _ (EIndex (EConst d) _)) => d | _ => VNone end.
Lemma hy_parts : hy_spine =
  lin_head "blobhydro" ++
  [SAssign "KDU" (ECall "get_KD_uversky" []);
   SAssign "hydrochain" (EListLit []);
   SFor "i" (EVar "self.seq") (SAppend "hydrochain" (EIndex (EVar "KDU") (EIndex (EConst one_to_three) (EVar "i"))));
   SFor "i" (ERange (EConst (VInt 0)) (EVar "nblobs")) hy_body;
   lin_rows "blobhydro"].
Proof. reflexivity. Qed.

Lemma kd_of a : dict_get (kv a) (dict_of one_to_three) = Some (three_val a).
Proof. destruct a; reflexivity. Qed.

Definition kdv (l : list aa) : list value := map (fun a => VQ (kd a)) l.

(* one residue: through the one-to-three dictionary of the data module into the table *)
Lemma chain_step a acc r : lookup "KDU" r = kd_table -> lookup "hydrochain" r = VList acc -> lookup "i" r = kv a ->
  exec (SAppend "hydrochain" (EIndex (EVar "KDU") (EIndex (EConst one_to_three) (EVar "i")))) r =
  ONorm (set "hydrochain" (VList (acc ++ [VQ (kd a)])) r).
Proof.
  intros Hk Hc Hx. apply exec_append_ok; [exact Hc | | reflexivity].
  apply (eval_index_dict _ _ _ (dict_of kd_table) (three_val a)); [rewrite eval_var; exact Hk | | reflexivity | exact (kd_table_get kd a)].
  apply (eval_index_dict _ _ _ (dict_of one_to_three) (kv a)); [reflexivity | rewrite eval_var; exact Hx | reflexivity | apply kd_of].
Qed.

Definition wq : Q := inject_Z (Z.of_nat w).
Definition val_h (b : list aa) : value := match sum_vals (kdv b) with Some q => VQ (Qred (q / wq)) | None => VErr end.

(* one window: hy_body is the window-mean body of Core.MiniPyLin, sum and qdiv in hy_prim are the shared primitives, and val_h is
   its mean_val, all by computation *)
Lemma hy_body_run i (done rest : list value) x r : (i + w <= N)%nat -> (1 <= w)%nat -> List.length done = i ->
  lookup "hydrochain" r = VList (kdv s) -> lookup "bloblen" r = VN w -> lookup "i" r = VN i -> lookup "blobhydro" r = VList (done ++ x :: rest) ->
  exec hy_body r = ONorm (set "blobhydro" (VList (done ++ val_h (blob w i s) :: rest)) (set "blob" (VList (blob w i (kdv s))) r)).
Proof. intros Hi Hw Hd. exact (mean_body_run hy_prim (fun _ => eq_refl) (fun _ => eq_refl) kd "hydrochain" "blobhydro" s w i done rest x r Hi Hw Hd eq_refl). Qed.

(* the hydropathy profile on EVERY sequence, window >= 1 and table *)
Theorem linHydro_tie r : (1 <= w)%nat -> lookup "self.len" r = VN N -> lookup "self.seq" r = VStr cs -> lookup "bloblen" r = VN w ->
  exec g_linHydro r =
  if (N <? w)%nat then ORaise
  else ORet (VList [VList (map (fun j => VN j) (seq 1 N));
                    VList (repeat (VInt 0) (fst (flanks w N)) ++ map val_h (blobs w s) ++ repeat (VInt 0) (snd (flanks w N)))]).
Proof.
  intros Hw Hlen Hs Hb. rewrite exec_spine. change (spine g_linHydro) with hy_spine. rewrite hy_parts.
  (* the first (fun _ => eq_refl) compares, by computation, what hy_prim makes of a call of the guard — running the translated
     g_check_window of Gen.GMiniPy — with MiniPyLin.guard_call, which runs the hand-written window_guard: a change of the
     Python guard breaks the tie here.  The second (and the one given to lin_tail_run) read the int_div and np.vstack
     entries of hy_prim off in the same way *)
  rewrite (lin_head_run hy_prim cs N w (map_length _ _) (fun _ => eq_refl) (fun _ => eq_refl) _ _ r Hw Hlen Hb).
  destruct (Nat.ltb_spec N w) as [Hlt|Hge]; [reflexivity|].
  rewrite (step_assign_list "KDU" (ECall "get_KD_uversky" []) _ _ kd_table eq_refl eq_refl).
  rewrite (step_assign_list "hydrochain" (EListLit []) _ _ (VList []) eq_refl eq_refl).
  set (r6 := set "hydrochain" (VList []) (set "KDU" kd_table (lin_env N w "blobhydro" r))).
  rewrite exec_list_cons, (exec_for_elems _ _ _ _ (map (fun a => kv a) s))
    by (rewrite eval_var; unfold r6, lin_env; lk; rewrite Hs; apply elements_seq_val).
  destruct (chain_run hy_prim "i" "hydrochain" "KDU" kd_table _ (fun a => VQ (kd a)) eq_refl eq_refl eq_refl chain_step s [] r6)
    as [r7 [E7 [Hh7 Hf7]]]; [unfold r6; lk; reflexivity | unfold r6; lk; reflexivity |].
  rewrite E7. cbn [app] in Hh7.
  rewrite (lin_tail_run hy_prim N w (fun _ => eq_refl) "blobhydro" "hydrochain" (VList (kdv s)) hy_body (fun i => val_h (blob w i s)) eq_refl eq_refl); try assumption.
  (* what the frame reads here is an argument or was set by the head, and the chain loop kept it *)
  3-8: rewrite Hf7 by reflexivity; unfold r6, lin_env; lk; assumption || reflexivity.
  - unfold blobs. now rewrite map_map.
  - intros i done rest x r0 Hi Hd Hh0 Hb0 Hi0 Hres. eexists. split; [apply (hy_body_run i done rest x r0); assumption|]. lk. repeat split; reflexivity.
Qed.

(* the stored value is the model's window statistic for the table kd *)
Lemma val_h_model b : (1 <= w)%nat -> exists q, val_h b = VQ q /\ (q == sumQ (map kd b) / wQ w)%Q.
Proof. intros _. exact (mean_val_model kd w b). Qed.
End Hydro.
Print Assumptions linHydro_tie.

Example hydro_runs : let kd := fun a : aa => match a with Lys => 1 # 9 | Gly => 4 # 9 | _ => 1 # 2 end in
  MiniPy.exec (hy_prim [Lys; Gly; Ala; Lys] kd) 0 g_linHydro
    [("self.len"%string, VInt 4); ("self.seq"%string, VStr (map aa_char [Lys; Gly; Ala; Lys])); ("bloblen"%string, VInt 2)] =
  ORet (VList [VList (map VInt [1; 2; 3; 4]); VList [VQ (5 # 18); VQ (17 # 36); VQ (11 # 36); VInt 0]]).
Proof. vm_compute. reflexivity. Qed.
