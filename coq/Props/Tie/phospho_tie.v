(* Tie (C16): S/T/Y lists (three places of use), the skip-on-out-of-range guard, dedup-and-append,
   the E substitution and the field order of the distribution entries, extracted from the source. *)
From Coq Require Import List String.
From LC Require Import Core.Residue Model.Phospho Gen.GSeq.
Import ListNotations.
Local Open Scope string_scope.

Lemma sty_lists_tie :
  forallb (fun l => forallb (fun a => Bool.eqb (mem_aa a l) (sty a)) all20) g_sty_lists = true
  /\ List.length g_sty_lists = 3%nat.
Proof. vm_compute. split; reflexivity. Qed.

Lemma phospho_letter_tie : g_phospho_letter = Glu.
Proof. reflexivity. Qed.

Lemma dist_fields_tie : g_dist_fields =
  ["newseqObj.kappa()"; "newseqObj.Fplus()"; "newseqObj.Fminus()"; "newseqObj.FCR()"; "newseqObj.NCPR()";
   "newseqObj.meanHydropathy()"; "phosphostatus"].
Proof. reflexivity. Qed.
