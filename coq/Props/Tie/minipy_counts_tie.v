(* Tie (C04; used by C01 / C02 / C09) — SEMANTIC: Sequence.countPos, countNeg, countNeut, Fplus, Fminus, FCR, NCPR, FER and
   mean_net_charge, translated from the working tree on every run into Core.MiniPy terms.  For EVERY charge pattern: the
   three counts are the numbers of positive / negative / zero entries (and add up to the length); the fractions are the
   counts over the length (FER adds the prolines of the sequence) — an exception (division by zero) exactly for the empty
   sequence; with a pH given, FCR / NCPR / FER use charge_at_pH(pH[, mode='TOTAL']) over the length, charge_at_pH being an
   ORACLE here (tied as a whole function in minipy_titration_tie.v); mean_net_charge is abs(NCPR).  self.countPos() etc. and self.NCPR()
   are interpreted by RUNNING their translated bodies; a / b is "qdiv". *)
From Coq Require Import List String Ascii Lia Qabs.
From LC Require Import Core.Residue Core.Lists Core.MiniPy Core.MiniPyData Core.MiniPyExec Spec.Delta Proofs.Delta Gen.GMiniPy.
Import ListNotations.
Local Open Scope Z_scope.

Definition qdiv_prim (args : list value) : value :=
  match args with
  | [a; b] => match as_Q a, as_Q b with
              | Some x, Some y => if Qeq_bool y 0 then VExc else VQ (Qred (x / y))
              | _, _ => VErr
              end
  | _ => VErr
  end.
(* the library's, under this file's name: its rules are used through this *)
Lemma qdiv_prim_lib args : qdiv_prim args = MiniPyData.qdiv_prim args.
Proof. reflexivity. Qed.

Section Counts.
Variable p : list Z.                       (* self.chargePattern *)
Variable cap : list value -> value.        (* self.charge_at_pH(...): an oracle *)
Local Notation N := (List.length p).
Definition c_env : env := [("self.chargePattern"%string, VList (map VInt p))].

Definition cprim0 (name : string) (args : list value) : value := if String.eqb name "qdiv" then qdiv_prim args else VErr.

(* each count is  len([i for i, x in enumerate(self.chargePattern) if <test on x>]) *)
Theorem countPos_tie prim r : lookup "self.chargePattern" r = VList (map VInt p) -> MiniPy.exec prim 0 g_countPos r = ORet (VInt (npos p)).
Proof.
  intros Hp. apply exec_return_ok; [|reflexivity].
  apply (eval_cnt_enumfilter _ _ _ _ VInt isposb p r (VList (map VInt p))); [reflexivity | exact Hp | reflexivity |].
  intros z k. apply cond_gt0.
Qed.
Theorem countNeg_tie prim r : lookup "self.chargePattern" r = VList (map VInt p) -> MiniPy.exec prim 0 g_countNeg r = ORet (VInt (nneg p)).
Proof.
  intros Hp. apply exec_return_ok; [|reflexivity].
  apply (eval_cnt_enumfilter _ _ _ _ VInt isnegb p r (VList (map VInt p))); [reflexivity | exact Hp | reflexivity |].
  intros z k. apply cond_lt0.
Qed.
Lemma three_way (l : list Z) : cnt (fun z => z =? 0) l = len l - npos l - nneg l.
Proof. exact (nneut_cnt l). Qed.
Theorem countNeut_tie prim r : lookup "self.chargePattern" r = VList (map VInt p) -> MiniPy.exec prim 0 g_countNeut r = ORet (VInt (nneut p)).
Proof.
  intros Hp. unfold nneut. rewrite <- three_way. apply exec_return_ok; [|reflexivity].
  apply (eval_cnt_enumfilter _ _ _ _ VInt (fun z => z =? 0) p r (VList (map VInt p))); [reflexivity | exact Hp | reflexivity |].
  intros z k. apply cond_eq0.
Qed.

(* the counts are interpreted by RUNNING their translated bodies (the match, here and in cprim2, is MiniPyData.ret_value) *)
Definition run0 (g : stmt) : value := match MiniPy.exec cprim0 0 g c_env with ORet v => v | ORaise => VExc | _ => VErr end.
Definition cprim1 (name : string) (args : list value) : value :=
  if String.eqb name "countPos" then match args with [] => run0 g_countPos | _ => VErr end
  else if String.eqb name "countNeg" then match args with [] => run0 g_countNeg | _ => VErr end
  else if String.eqb name "countNeut" then match args with [] => run0 g_countNeut | _ => VErr end
  else if String.eqb name "charge_at_pH" then cap args
  else if String.eqb name "charge_at_pH|mode" then cap args
  else cprim0 name args.
Lemma call_pos : cprim1 "countPos" [] = VInt (npos p). Proof. unfold cprim1, run0. cbn [String.eqb Ascii.eqb Bool.eqb]. now rewrite (countPos_tie cprim0 c_env eq_refl). Qed.
Lemma call_neg : cprim1 "countNeg" [] = VInt (nneg p). Proof. unfold cprim1, run0. cbn [String.eqb Ascii.eqb Bool.eqb]. now rewrite (countNeg_tie cprim0 c_env eq_refl). Qed.
Lemma call_neut : cprim1 "countNeut" [] = VInt (nneut p). Proof. unfold cprim1, run0. cbn [String.eqb Ascii.eqb Bool.eqb]. now rewrite (countNeut_tie cprim0 c_env eq_refl). Qed.

Definition lenq : Q := Qred (inject_Z (Z.of_nat N) + 0).
Definition frac (c : Z) : outcome := if (N =? 0)%nat then ORaise else ORet (VQ (Qred (inject_Z c / lenq))).

(* every fraction returns  qdiv(x, self.len + 0.0): an exception exactly for the empty sequence *)
Lemma quot_outcome (e : expr) v x r : lookup "self.len" r = VInt (Z.of_nat N) -> MiniPy.eval cprim1 e r = v -> numv v x ->
  MiniPy.exec cprim1 0 (SReturn (ECall "qdiv" [e; EAdd (EVar "self.len") (EConst (VQ (0 # 1)))])) r =
  if (N =? 0)%nat then ORaise else ORet (VQ (Qred (x / lenq))).
Proof.
  intros Hl He Hx. cbn [MiniPy.exec].
  rewrite (eval_call2 _ _ _ _ v (VQ lenq) He (eval_add_Q_int_l _ _ _ _ _ (eq_trans (eval_var _ _) Hl) (eval_const _ _)) (numv_ok v x Hx) eq_refl).
  change (cprim1 "qdiv" [v; VQ lenq]) with (qdiv_prim [v; VQ lenq]).
  rewrite qdiv_prim_lib, (qdiv_prim_numv v x (VQ lenq) lenq Hx (NQ lenq)). unfold lenq at 1. rewrite Qeq_bool_floatlen_nat.
  destruct (N =? 0)%nat; reflexivity.
Qed.

Lemma quot_run (e : expr) c r : lookup "self.len" r = VInt (Z.of_nat N) -> MiniPy.eval cprim1 e r = VInt c ->
  MiniPy.exec cprim1 0 (SReturn (ECall "qdiv" [e; EAdd (EVar "self.len") (EConst (VQ (0 # 1)))])) r = frac c.
Proof. intros Hl He. exact (quot_outcome e (VInt c) _ r Hl He (NI c)). Qed.

Lemma quot_run_Q (e : expr) x r : (1 <= N)%nat -> lookup "self.len" r = VInt (Z.of_nat N) -> MiniPy.eval cprim1 e r = VQ x ->
  MiniPy.exec cprim1 0 (SReturn (ECall "qdiv" [e; EAdd (EVar "self.len") (EConst (VQ (0 # 1)))])) r = ORet (VQ (Qred (x / lenq))).
Proof. intros HN Hl He. rewrite (quot_outcome e (VQ x) x r Hl He (NQ x)). destruct (Nat.eqb_spec N 0); [lia | reflexivity]. Qed.

Theorem Fplus_tie r : lookup "self.len" r = VInt (Z.of_nat N) -> MiniPy.exec cprim1 0 g_Fplus r = frac (npos p).
Proof. intros Hl. apply quot_run; [exact Hl|]. rewrite eval_call0. apply call_pos. Qed.
Theorem Fminus_tie r : lookup "self.len" r = VInt (Z.of_nat N) -> MiniPy.exec cprim1 0 g_Fminus r = frac (nneg p).
Proof. intros Hl. apply quot_run; [exact Hl|]. rewrite eval_call0. apply call_neg. Qed.

(* the test  pH is not None  that FCR, NCPR and FER branch on *)
Lemma ph_test r v : lookup "pH" r = v -> is_bad v = false ->
  truthy (MiniPy.eval cprim1 (ENe (EVar "pH") (EConst VNone)) r) = VBool (negb (veqb v VNone)).
Proof. intros Hv Hb. now rewrite (eval_ne_val (EVar "pH") (EConst VNone) r v VNone Hv (eval_const _ _) Hb eq_refl). Qed.

Theorem FCR_tie r : lookup "self.len" r = VInt (Z.of_nat N) -> lookup "pH" r = VNone -> MiniPy.exec cprim1 0 g_FCR r = frac (npos p + nneg p).
Proof.
  intros Hl Hph. unfold g_FCR. rewrite (exec_if_false _ _ _ _ (ph_test r VNone Hph eq_refl)). apply quot_run; [exact Hl|].
  apply eval_add_int; rewrite eval_call0; [apply call_pos | apply call_neg].
Qed.
Theorem NCPR_tie r : lookup "self.len" r = VInt (Z.of_nat N) -> lookup "pH" r = VNone -> MiniPy.exec cprim1 0 g_NCPR r = frac (npos p - nneg p).
Proof.
  intros Hl Hph. unfold g_NCPR. rewrite (exec_if_false _ _ _ _ (ph_test r VNone Hph eq_refl)). apply quot_run; [exact Hl|].
  apply eval_sub_int; rewrite eval_call0; [apply call_pos | apply call_neg].
Qed.

(* with a pH: the oracle's charge over the length *)
Theorem NCPR_pH_tie (ph : Q) (c : Q) r : lookup "self.len" r = VInt (Z.of_nat N) -> lookup "pH" r = VQ ph -> cap [VQ ph] = VQ c -> (1 <= N)%nat ->
  MiniPy.exec cprim1 0 g_NCPR r = ORet (VQ (Qred (c / lenq))).
Proof.
  intros Hl Hph Hc HN. unfold g_NCPR. rewrite (exec_if_true _ _ _ _ (ph_test r (VQ ph) Hph eq_refl)). apply (quot_run_Q _ c r HN Hl).
  rewrite (eval_call1 _ _ _ (VQ ph) (eq_trans (eval_var _ _) Hph) eq_refl). exact Hc.
Qed.

Lemma total_charge (ph c : Q) r : lookup "pH" r = VQ ph -> cap [VQ ph; VStr (list_ascii_of_string "TOTAL")] = VQ c ->
  MiniPy.eval cprim1 (ECall "charge_at_pH|mode" [EVar "pH"; EConst (VStr (list_ascii_of_string "TOTAL"))]) r = VQ c.
Proof.
  intros Hph Hc.
  rewrite (eval_call2 _ _ _ _ (VQ ph) (VStr (list_ascii_of_string "TOTAL")) (eq_trans (eval_var _ _) Hph) (eval_const _ _) eq_refl eq_refl).
  exact Hc.
Qed.

Theorem FCR_pH_tie (ph : Q) (c : Q) r : lookup "self.len" r = VInt (Z.of_nat N) -> lookup "pH" r = VQ ph ->
  cap [VQ ph; VStr (list_ascii_of_string "TOTAL")] = VQ c -> (1 <= N)%nat ->
  MiniPy.exec cprim1 0 g_FCR r = ORet (VQ (Qred (c / lenq))).
Proof.
  intros Hl Hph Hc HN. unfold g_FCR. rewrite (exec_if_true _ _ _ _ (ph_test r (VQ ph) Hph eq_refl)).
  exact (quot_run_Q _ c r HN Hl (total_charge ph c r Hph Hc)).
Qed.

(* FER counts the prolines of the sequence besides the charges *)
Lemma prolines (sq : list aa) r : lookup "self.seq" r = VStr (map aa_char sq) ->
  MiniPy.eval cprim1 (ECount (EVar "self.seq") (EConst (VStr (list_ascii_of_string "P")))) r = VInt (cnt (aa_eqb Pro) sq).
Proof.
  intros Hs. rewrite (eval_count_char (EVar "self.seq") _ r (map aa_char sq) "P"%char Hs (eval_const _ _)).
  exact (f_equal VInt (count_substr1_aa_char Pro sq)).
Qed.

(* FER without a pH: (positive + negative + prolines) over the length *)
Theorem FER_tie (sq : list aa) r : List.length sq = N -> lookup "self.len" r = VInt (Z.of_nat N) -> lookup "pH" r = VNone -> lookup "self.seq" r = VStr (map aa_char sq) ->
  MiniPy.exec cprim1 0 g_FER r = frac (npos p + nneg p + cnt (aa_eqb Pro) sq).
Proof.
  intros Hsq Hl Hph Hs. unfold g_FER. rewrite (exec_if_false _ _ _ _ (ph_test r VNone Hph eq_refl)). apply quot_run; [exact Hl|].
  apply eval_add_int; [apply eval_add_int; rewrite eval_call0; [apply call_pos | apply call_neg] | exact (prolines sq r Hs)].
Qed.

(* FER with a pH: (total charge from the oracle + prolines) over the length *)
Theorem FER_pH_tie (sq : list aa) (ph c : Q) r : List.length sq = N -> (1 <= N)%nat -> lookup "self.len" r = VInt (Z.of_nat N) -> lookup "pH" r = VQ ph ->
  lookup "self.seq" r = VStr (map aa_char sq) -> cap [VQ ph; VStr (list_ascii_of_string "TOTAL")] = VQ c ->
  MiniPy.exec cprim1 0 g_FER r = ORet (VQ (Qred (Qred (c + inject_Z (cnt (aa_eqb Pro) sq)) / lenq))).
Proof.
  intros Hsq HN Hl Hph Hs Hc. unfold g_FER. rewrite (exec_if_true _ _ _ _ (ph_test r (VQ ph) Hph eq_refl)).
  exact (quot_run_Q _ _ r HN Hl (eval_add_Q_int _ _ _ _ _ (total_charge ph c r Hph Hc) (prolines sq r Hs))).
Qed.

Lemma frac_value c : (1 <= N)%nat -> (Qred (inject_Z c / lenq) == c # Pos.of_nat N)%Q.
Proof. exact (frac_floatlen c N). Qed.

(* mean_net_charge: abs(self.NCPR(pH)); the call of NCPR is interpreted by RUNNING its translated body *)
Definition abs_prim (args : list value) : value :=
  match args with [VInt z] => VInt (Z.abs z) | [VQ q] => VQ (Qred (Qabs q)) | _ => VErr end.
Definition cprim2 (name : string) (args : list value) : value :=
  if String.eqb name "abs" then abs_prim args
  else if String.eqb name "NCPR" then
    match args with [ph] => match MiniPy.exec cprim1 0 g_NCPR (("pH"%string, ph) :: ("self.len"%string, VInt (Z.of_nat N)) :: c_env) with ORet v => v | ORaise => VExc | _ => VErr end | _ => VErr end
  else VErr.
Theorem mean_net_charge_tie r : lookup "pH" r = VNone -> (1 <= N)%nat ->
  MiniPy.exec cprim2 0 g_mean_net_charge r = ORet (VQ (Qred (Qabs (Qred (inject_Z (npos p - nneg p) / lenq))))).
Proof.
  intros Hph HN. unfold g_mean_net_charge. apply exec_return_ok; [|reflexivity].
  rewrite (eval_call1 _ _ _ (VQ (Qred (inject_Z (npos p - nneg p) / lenq)))); [reflexivity | | reflexivity].
  rewrite (eval_call1 _ _ _ VNone); [| rewrite eval_var; exact Hph | reflexivity].
  unfold cprim2. cbn [String.eqb Ascii.eqb Bool.eqb]. rewrite NCPR_tie by reflexivity.
  unfold frac. destruct N; [lia | reflexivity].
Qed.
Theorem mean_net_charge_pH_tie (ph c : Q) r : lookup "pH" r = VQ ph -> cap [VQ ph] = VQ c -> (1 <= N)%nat ->
  exists v, MiniPy.exec cprim1 0 g_NCPR (("pH"%string, VQ ph) :: ("self.len"%string, VInt (Z.of_nat N)) :: c_env) = ORet (VQ v) /\
            MiniPy.exec cprim2 0 g_mean_net_charge r = ORet (VQ (Qred (Qabs v))).
Proof.
  intros Hph Hc HN. pose proof (NCPR_pH_tie ph c (("pH"%string, VQ ph) :: ("self.len"%string, VInt (Z.of_nat N)) :: c_env) eq_refl eq_refl Hc HN) as E.
  eexists. split; [exact E|]. unfold g_mean_net_charge. apply exec_return_ok; [|reflexivity].
  erewrite (eval_call1 _ _ _ (VQ _)); [reflexivity | | reflexivity].
  rewrite (eval_call1 _ _ _ (VQ ph)); [| rewrite eval_var; exact Hph | reflexivity].
  unfold cprim2. cbn [String.eqb Ascii.eqb Bool.eqb]. rewrite E. reflexivity.
Qed.
End Counts.
Print Assumptions mean_net_charge_tie.
Print Assumptions mean_net_charge_pH_tie.
Print Assumptions countNeut_tie.
Print Assumptions NCPR_tie.
Print Assumptions FCR_pH_tie.
Print Assumptions FER_tie.
Print Assumptions FER_pH_tie.

(* the public getters (SequenceParameters) are exactly a return of the backend call with their own arguments *)
Lemma fw_get_countPos : g_fw_get_countPos = SReturn (ECall "SeqObj.countPos"%string []). Proof. reflexivity. Qed.
Lemma fw_get_countNeg : g_fw_get_countNeg = SReturn (ECall "SeqObj.countNeg"%string []). Proof. reflexivity. Qed.
Lemma fw_get_countNeut : g_fw_get_countNeut = SReturn (ECall "SeqObj.countNeut"%string []). Proof. reflexivity. Qed.
Lemma fw_get_fraction_positive : g_fw_get_fraction_positive = SReturn (ECall "SeqObj.Fplus"%string []). Proof. reflexivity. Qed.
Lemma fw_get_fraction_negative : g_fw_get_fraction_negative = SReturn (ECall "SeqObj.Fminus"%string []). Proof. reflexivity. Qed.
Lemma fw_get_mean_hydropathy : g_fw_get_mean_hydropathy = SReturn (ECall "SeqObj.meanHydropathy"%string []). Proof. reflexivity. Qed.
Lemma fw_get_uversky_hydropathy : g_fw_get_uversky_hydropathy = SReturn (ECall "SeqObj.uverskyHydropathy"%string []). Proof. reflexivity. Qed.
Lemma fw_get_WW_hydropathy : g_fw_get_WW_hydropathy = SReturn (ECall "SeqObj.meanWWHydropathy"%string []). Proof. reflexivity. Qed.
Lemma fw_get_fraction_disorder_promoting : g_fw_get_fraction_disorder_promoting = SReturn (ECall "SeqObj.fraction_disorder_promoting"%string []). Proof. reflexivity. Qed.
Lemma fw_get_amino_acid_fractions : g_fw_get_amino_acid_fractions = SReturn (ECall "SeqObj.amino_acid_fraction"%string []). Proof. reflexivity. Qed.
Lemma fw_get_molecular_weight : g_fw_get_molecular_weight = SReturn (ECall "SeqObj.molecular_weight"%string []). Proof. reflexivity. Qed.
Lemma fw_get_PPII_propensity : g_fw_get_PPII_propensity = SReturn (ECall "SeqObj.FPPII_chain"%string [EVar "mode"%string]). Proof. reflexivity. Qed.
Lemma fw_get_length : g_fw_get_length = SReturn (ELen (EVar "self.SeqObj.seq"%string)). Proof. reflexivity. Qed.
Lemma fw_get_sequence : g_fw_get_sequence = SReturn (EVar "self.SeqObj.seq"%string). Proof. reflexivity. Qed.
