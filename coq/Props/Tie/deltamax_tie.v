(* Tie (C03): the candidate enumeration of Sequence.deltaMax, symbolically executed from the
   source by tools/py2coq/strsym (regime chain, range bounds, block order), produces exactly
   the documented family Spec.Delta.cands — same candidates, same order — for every
   composition with N <= 26 (3653 compositions, covering n0 = 17/18 and the 7x7 end-neutral
   ranges).  Bounded by kernel evaluation; the bound is in the statement. *)
From Coq Require Import List.
From LC Require Import Core.Lists Spec.Delta Proofs.Flat Gen.GSeq.
Import ListNotations.

Lemma g_cands_eq_family_b :
  forallb (fun c => let '(p, n, z) := c in llZ_eqb (g_cands p n z) (cands p n z)) (all_comps 26) = true.
Proof. vm_compute. reflexivity. Qed.

Theorem g_cands_eq_family p n z : In (p, n, z) (all_comps 26) -> g_cands p n z = cands p n z.
Proof.
  intros H. pose proof g_cands_eq_family_b as Hb. rewrite forallb_forall in Hb.
  specialize (Hb _ H). cbn beta iota in Hb. apply llZ_eqb_eq. exact Hb.
Qed.

(* uncharged compositions of any size enumerate nothing (delta-max is then 0 by the FCR = 0 arm) *)
Lemma g_cands_uncharged z : g_cands 0 0 z = [].
Proof. reflexivity. Qed.

Print Assumptions g_cands_eq_family.
