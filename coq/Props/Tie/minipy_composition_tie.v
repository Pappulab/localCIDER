(* Tie (C04) — SEMANTIC: Sequence.meanHydropathy, uverskyHydropathy, meanWWHydropathy, FPPII_chain, molecular_weight,
   fraction_disorder_promoting and amino_acid_fraction, translated from the working tree on every run into Core.MiniPy terms.  The residue tables
   (lkupTab.lookUpHydropathy / lookUpPPII, get_KD_uversky) are primitives returning ANY table (the tables themselves are
   tied cell by cell in tables_tie); dictionaries written as literals in the data module (get_WW_original,
   get_molecular_weight_Da, ONE_TO_THREE) are read by the translator.  For EVERY sequence: the three hydropathies and
   the PPII propensity are the residue-by-residue sums of their table over the length (accumulated as the code does),
   the molecular weight is the sum of the table minus 18 per peptide bond, the disorder-promoting fraction is the number
   of residues in the D list over the length, the fraction of each letter its number of occurrences over the length.  a / b is exact rational division ("qdiv"). *)
From Coq Require Import List String QArith Lia.
From LC Require Import Core.Residue Core.Lists Core.QTools Core.MiniPy Core.MiniPyData Core.MiniPyExec Spec.Tables Gen.GMiniPy.
Import ListNotations.
Local Open Scope Z_scope.

Definition qdiv_prim (args : list value) : value :=
  match args with
  | [a; b] => match as_Q a, as_Q b with
              | Some x, Some y => if Qeq_bool y 0 then VExc else VQ (Qred (x / y))
              | _, _ => VErr
              end
  | _ => VErr
  end.
Inductive numv : value -> Q -> Prop := NI z : numv (VInt z) (inject_Z z) | NQ q : numv (VQ q) q.

(* This file's statements name its own qdiv_prim and numv; the shared rules speak of MiniPyData's, which are the same:
   below, an unqualified numv / NI / NQ is always this file's, and the library's rules are reached through these. *)
Lemma qdiv_prim_lib args : qdiv_prim args = MiniPyData.qdiv_prim args.
Proof. reflexivity. Qed.
Lemma numv_lib v q : numv v q <-> MiniPyData.numv v q.
Proof. split; destruct 1; constructor. Qed.
Lemma numv_ok v q : numv v q -> is_bad v = false.
Proof. intros H. exact (MiniPyData.numv_ok v q (proj1 (numv_lib v q) H)). Qed.

Section Comp.
Variable s : list aa.
Local Notation N := (List.length s).
Local Notation cs := (map aa_char s).

Lemma seq_at prim iv r k a : lookup "self.seq" r = VStr cs -> lookup iv r = VN k -> nth_error s k = Some a ->
  MiniPy.eval prim (EIndex (EVar "self.seq") (EVar iv)) r = kv a.
Proof. intros Hs Hi Ha. exact (eval_index_str (EVar "self.seq") (EVar iv) r cs _ _ Hs Hi (index_val_map_some aa_char s k a Ha)). Qed.

Lemma seq_len prim r : lookup "self.seq" r = VStr cs -> MiniPy.eval prim (ELen (EVar "self.seq")) r = VN N.
Proof. intros Hs. rewrite (eval_len_str (EVar "self.seq") r cs Hs). now rewrite map_length. Qed.

Lemma nth_nonempty k a : nth_error s k = Some a -> (1 <= N)%nat.
Proof. intros H. assert (k < N)%nat by (apply nth_error_Some; congruence). lia. Qed.

(* x / len(seq) for a number x: on a non-empty sequence the divisor is not zero *)
Lemma qdiv_len prim e1 e2 r v x : (forall args, prim "qdiv"%string args = qdiv_prim args) -> (1 <= N)%nat ->
  MiniPy.eval prim e1 r = v -> numv v x -> MiniPy.eval prim e2 r = VN N ->
  MiniPy.eval prim (ECall "qdiv" [e1; e2]) r = VQ (Qred (x / inject_Z (Z.of_nat N))).
Proof.
  intros Hp HN E1 Hv E2. rewrite (eval_call2 _ _ _ _ v (VN N) E1 E2 (numv_ok v x Hv) eq_refl), Hp.
  rewrite qdiv_prim_lib. apply qdiv_prim_num; [exact (proj1 (numv_lib v x) Hv) | lia].
Qed.

Lemma idx_elems (t : list aa) k : map (fun p : nat * aa => VN (fst p)) (combine (seq k (List.length t)) t) = ints (seq k (List.length t)).
Proof. revert k. induction t as [|a t IH]; intros k; [reflexivity|]. cbn [List.length seq combine map fst]. f_equal. apply IH. Qed.
Lemma chr_elems (t : list aa) k : map (fun p : nat * aa => kv (snd p)) (combine (seq k (List.length t)) t) = chars_val (map aa_char t).
Proof. revert k. induction t as [|a t IH]; intros k; [reflexivity|]. cbn [List.length seq combine map snd]. f_equal. apply IH. Qed.

Lemma range_elems prim r : lookup "self.len" r = VN N ->
  elements (MiniPy.eval prim (ERange (EConst (VInt 0)) (EVar "self.len")) r) = Some (map (fun p : nat * aa => VN (fst p)) (combine (seq 0 N) s)).
Proof.
  intros Hl. rewrite (eval_range0 _ (EVar "self.len") r N (eval_const _ _) Hl). cbn [elements]. now rewrite idx_elems.
Qed.

(* the common loop: acc = acc + term(residue), over indices or over characters *)
Section SumLoop.
Variable prim : string -> list value -> value.
Variables accv iv : string.
Variable term : expr.
Variable g : aa -> Q.
Variable ev : nat -> aa -> value.          (* the loop variable's value for residue a at position k *)
Variable Inv : env -> Prop.
Hypothesis Hiv : String.eqb accv iv = false.
Hypothesis Inv_iv : forall r v, Inv r -> Inv (set iv v r).
Hypothesis Inv_acc : forall r v, Inv r -> Inv (set accv v r).
Hypothesis term_spec : forall r a k, Inv r -> lookup iv r = ev k a -> nth_error s k = Some a -> MiniPy.eval prim term r = VQ (g a).

Definition sstep (acc : Q) (a : aa) : Q := Qred (acc + g a).
Definition sbody : stmt := SAssign accv (EAdd (EVar accv) term).

Lemma sum_loop : forall (t pre : list aa) av a r, s = pre ++ t -> numv av a -> Inv r -> lookup accv r = av ->
  exists r' av', MiniPy.run_loop prim 0 iv sbody (map (fun p => ev (fst p) (snd p)) (combine (seq (List.length pre) (List.length t)) t)) r = ONorm r' /\
    lookup accv r' = av' /\ numv av' (fold_left sstep t a) /\ Inv r' /\
    (forall y, String.eqb y accv = false -> String.eqb y iv = false -> lookup y r' = lookup y r).
Proof.
  induction t as [|x t IH]; intros pre av a r Hs Ha HI Hav.
  - exists r, av. cbn [List.length seq combine map MiniPy.run_loop fold_left]. repeat split; assumption || reflexivity.
  - cbn [List.length seq combine map MiniPy.run_loop fold_left fst snd].
    set (r0 := set iv (ev (List.length pre) x) r).
    assert (Hx : nth_error s (List.length pre) = Some x) by (rewrite Hs, nth_error_app2, Nat.sub_diag by lia; reflexivity).
    assert (Et : MiniPy.eval prim term r0 = VQ (g x)) by (apply (term_spec r0 x (List.length pre)); [apply Inv_iv; exact HI | unfold r0; apply lookup_set_eq | exact Hx]).
    assert (Ea : MiniPy.eval prim (EAdd (EVar accv) term) r0 = VQ (sstep a x)).
    { apply (eval_add_num_Q _ _ _ av a (g x)); [rewrite eval_var; unfold r0; rewrite lookup_set_neq by exact Hiv; exact Hav | exact (proj1 (numv_lib av a) Ha) | exact Et]. }
    unfold sbody at 1. rewrite (exec_assign_ok _ _ _ _ Ea eq_refl).
    destruct (IH (pre ++ [x]) (VQ (sstep a x)) (sstep a x) (set accv (VQ (sstep a x)) r0)) as [r1 [av1 [E1 [H1 [N1 [I1 F1]]]]]].
    { rewrite <- app_assoc. exact Hs. } { constructor. } { apply Inv_acc, Inv_iv. exact HI. } { apply lookup_set_eq. }
    rewrite app_length in E1. cbn [List.length] in E1. replace (List.length pre + 1)%nat with (S (List.length pre)) in E1 by lia.
    exists r1, av1. repeat split; try assumption.
    intros y Y1 Y2. rewrite F1 by assumption. rewrite lookup_set_neq by exact Y1. unfold r0. now rewrite lookup_set_neq by exact Y2.
Qed.

Lemma sum_value : forall t a, (fold_left sstep t a == a + sumQ (map g t))%Q.
Proof.
  induction t as [|x t IH]; intros a; cbn [fold_left map sumQ]; [ring|]. rewrite IH. unfold sstep. rewrite Qred_correct. ring.
Qed.
End SumLoop.

(* the functions below all have the shape  acc = v0; for iv in it: acc = acc + term; rest,  and the term reads
   variables (those of l) that the loop does not assign *)
Lemma sum_fun prim accv iv term g ev l v0 a0 it rest r : String.eqb accv iv = false -> avoids [accv; iv] l = true ->
  (forall r a k, binds l r -> lookup iv r = ev k a -> nth_error s k = Some a -> MiniPy.eval prim term r = VQ (g a)) ->
  numv v0 a0 -> binds l r ->
  elements (MiniPy.eval prim it (set accv v0 r)) = Some (map (fun p => ev (fst p) (snd p)) (combine (seq 0 N) s)) ->
  exists r' av, MiniPy.exec prim 0 (SSeq (SAssign accv (EConst v0)) (SSeq (SFor iv it (sbody accv term)) rest)) r = MiniPy.exec prim 0 rest r' /\
    lookup accv r' = av /\ numv av (fold_left (sstep g) s a0) /\ same_except [accv; iv] r r'.
Proof.
  intros Hiv Hl Ht Hv HI He.
  pose proof (binds_set [accv; iv] l iv (or_intror (or_introl eq_refl)) Hl) as Hi.
  pose proof (binds_set [accv; iv] l accv (or_introl eq_refl) Hl) as Ha.
  destruct (sum_loop prim accv iv term g ev (binds l) Hiv Hi Ha Ht s [] v0 a0 (set accv v0 r)
              eq_refl Hv (Ha r v0 HI) (lookup_set_eq _ _ _)) as [r1 [av [E [H1 [N1 [_ F1]]]]]].
  cbn [List.length] in E. exists r1, av.
  rewrite (step_const _ _ _ _ (numv_ok _ _ Hv)), (step_norm _ _ _ _ (eq_trans (exec_for_elems _ _ _ _ _ He) E)).
  repeat split; try assumption. intros y Hy. cbn [existsb] in Hy. rewrite orb_false_r in Hy. destruct (orb_false_elim _ _ Hy) as [Y1 Y2].
  rewrite F1 by assumption. apply lookup_set_neq, Y1.
Qed.

(* summing table / length residue by residue gives the mean of the table *)
Lemma mean_value (f : aa -> Q) : (fold_left (sstep (fun a => Qred (f a / inject_Z (Z.of_nat N)))) s 0%Q == sumQ (map f s) / inject_Z (Z.of_nat N))%Q.
Proof.
  rewrite sum_value, Qplus_0_l. generalize (inject_Z (Z.of_nat N)) as n. intros n. generalize s as t.
  induction t as [|x t IH]; cbn [map sumQ]; [reflexivity|]. rewrite IH, Qred_correct. unfold Qdiv. ring.
Qed.

Definition qd (args : list value) := qdiv_prim args.

Section MeanHydropathy.
Variable h : aa -> Q.                    (* lkupTab.lookUpHydropathy, residue by residue: ANY table *)
Definition mh_prim (name : string) (args : list value) : value :=
  if String.eqb name "qdiv" then qdiv_prim args
  else if String.eqb name "lkupTab.lookUpHydropathy" then
    match args with [VStr [c]] => match aa_of_char c with Some a => VQ (h a) | None => VExc end | _ => VErr end
  else VErr.
Definition mh_vars : list (string * value) := [("self.seq"%string, VStr cs); ("self.len"%string, VN N)].
Definition mh_term : expr := ECall "qdiv" [ECall "lkupTab.lookUpHydropathy" [EIndex (EVar "self.seq") (EVar "i")]; EVar "self.len"].
Definition mh_g (a : aa) : Q := Qred (h a / inject_Z (Z.of_nat N)).

Lemma mh_term_spec r a k : binds mh_vars r -> lookup "i" r = VN k -> nth_error s k = Some a -> MiniPy.eval mh_prim mh_term r = VQ (mh_g a).
Proof.
  intros [Hs [Hl _]] Hi Ha.
  apply (qdiv_len mh_prim _ _ r (VQ (h a)) (h a) (fun _ => eq_refl) (nth_nonempty k a Ha)); [| constructor | rewrite eval_var; exact Hl].
  rewrite (eval_call1 _ _ _ _ (seq_at mh_prim "i" r k a Hs Hi Ha) eq_refl).
  unfold mh_prim. cbn [String.eqb Ascii.eqb Bool.eqb]. now rewrite aa_of_char_char.
Qed.

Theorem meanHydropathy_tie r : lookup "self.seq" r = VStr cs -> lookup "self.len" r = VN N ->
  exists v, MiniPy.exec mh_prim 0 g_meanHydropathy r = ORet v /\ numv v (fold_left (sstep mh_g) s 0%Q).
Proof.
  intros Hs Hl.
  destruct (sum_fun mh_prim "ans" "i" mh_term mh_g (fun k _ => VN k) mh_vars (VInt 0) 0%Q (ERange (EConst (VInt 0)) (EVar "self.len"))
              (SReturn (EVar "ans")) r eq_refl eq_refl mh_term_spec (NI 0))
    as [r1 [v [E [H1 [N1 _]]]]].
  - repeat split; assumption.
  - apply range_elems. lk. exact Hl.
  - exists v. split; [|exact N1]. refine (eq_trans E _). apply exec_return_ok; [rewrite eval_var; exact H1 | exact (numv_ok _ _ N1)].
Qed.

Lemma meanHydropathy_value : (1 <= N)%nat -> (fold_left (sstep mh_g) s 0%Q == sumQ (map h s) / inject_Z (Z.of_nat N))%Q.
Proof. intros _. apply mean_value. Qed.
End MeanHydropathy.

(* uverskyHydropathy and meanWWHydropathy: table[translate[seq[idx]]] / len *)
Definition three_val (a : aa) : value := VStr (list_ascii_of_string (aa_three a)).
Definition one_to_three : value := Eval vm_compute in match g_uverskyHydropathy with SSeq _ (SSeq (SAssign _ (EConst d)) _) => d | _ => VNone end.
Definition ww_dict : value := Eval vm_compute in match g_meanWWHydropathy with SSeq (SAssign _ (EConst d)) _ => d | _ => VNone end.
Definition dict_of (v : value) : list (value * value) := match v with VDict d => d | _ => [] end.
Lemma three_of a : dict_get (kv a) (dict_of one_to_three) = Some (three_val a).
Proof. destruct a; reflexivity. Qed.

Section TableMean.
Variable tbl : value.                     (* the dictionary from three-letter names to numbers *)
Variable f : aa -> Q.
Hypothesis tbl_spec : forall a, dict_get (three_val a) (dict_of tbl) = Some (VQ (f a)).
Hypothesis tbl_dict : tbl = VDict (dict_of tbl).
Variable tv : string.                     (* the local variable holding the table *)
Hypothesis tv1 : String.eqb tv "idx" = false.
Hypothesis tv2 : String.eqb tv "ans" = false.
Variable tm_prim : string -> list value -> value.
Hypothesis prim_qdiv : forall args, tm_prim "qdiv" args = qdiv_prim args.
Definition tm_vars : list (string * value) :=
  [("self.seq"%string, VStr cs); ("self.len"%string, VN N); (tv, tbl); ("translate"%string, one_to_three)].
Definition tm_term : expr := ECall "qdiv" [EIndex (EVar tv) (EIndex (EVar "translate") (EIndex (EVar "self.seq") (EVar "idx"))); EVar "self.len"].
Definition tm_g (a : aa) : Q := Qred (f a / inject_Z (Z.of_nat N)).
(* what both functions do once their two dictionaries are in place *)
Definition tm_sum : stmt :=
  SSeq (SAssign "ans" (EConst (VInt 0))) (SSeq (SFor "idx" (ERange (EConst (VInt 0)) (EVar "self.len")) (sbody "ans" tm_term)) (SReturn (EVar "ans"))).

Lemma tm_term_spec r a k : binds tm_vars r -> lookup "idx" r = VN k -> nth_error s k = Some a -> MiniPy.eval tm_prim tm_term r = VQ (tm_g a).
Proof.
  intros [Hs [Hl [Ht [Htr _]]]] Hi Ha.
  apply (qdiv_len tm_prim _ _ r (VQ (f a)) (f a) prim_qdiv (nth_nonempty k a Ha)); [| constructor | rewrite eval_var; exact Hl].
  apply (eval_index_dict _ _ _ (dict_of tbl) (three_val a)); [rewrite eval_var, Ht; exact tbl_dict | | reflexivity | apply tbl_spec].
  apply (eval_index_dict _ _ _ (dict_of one_to_three) (kv a)); [rewrite eval_var; exact Htr | | reflexivity | apply three_of].
  exact (seq_at tm_prim "idx" r k a Hs Hi Ha).
Qed.

Lemma tm_vars_kept : avoids ["ans"; "idx"]%string tm_vars = true.
Proof. unfold avoids, tm_vars. cbn [forallb existsb fst]. rewrite tv1, tv2. reflexivity. Qed.

Lemma tm_sum_ok r : binds tm_vars r -> exists v, MiniPy.exec tm_prim 0 tm_sum r = ORet v /\ numv v (fold_left (sstep tm_g) s 0%Q).
Proof.
  intros HI.
  destruct (sum_fun tm_prim "ans" "idx" tm_term tm_g (fun k _ => VN k) tm_vars (VInt 0) 0%Q (ERange (EConst (VInt 0)) (EVar "self.len"))
              (SReturn (EVar "ans")) r eq_refl tm_vars_kept tm_term_spec (NI 0) HI) as [r1 [v [E [H1 [N1 _]]]]].
  - apply range_elems. lk. apply HI.
  - exists v. split; [|exact N1]. refine (eq_trans E _). apply exec_return_ok; [rewrite eval_var; exact H1 | exact (numv_ok _ _ N1)].
Qed.
End TableMean.

Section Uversky.
Variable kd : aa -> Q.                     (* the table get_KD_uversky() returns: ANY table on the twenty names *)
Definition kd_table : value := VDict (map (fun a => (three_val a, VQ (kd a))) all20).
Lemma kd_spec a : dict_get (three_val a) (dict_of kd_table) = Some (VQ (kd a)).
Proof. exact (kd_table_get kd a). Qed.
Definition uv_prim (name : string) (args : list value) : value :=
  if String.eqb name "get_KD_uversky" then match args with [] => kd_table | _ => VErr end
  else if String.eqb name "qdiv" then qdiv_prim args else VErr.

Lemma uversky_shape : g_uverskyHydropathy =
  SSeq (SAssign "normalizedKD" (ECall "get_KD_uversky" [])) (SSeq (SAssign "translate" (EConst one_to_three)) (tm_sum "normalizedKD")).
Proof. reflexivity. Qed.

Theorem uverskyHydropathy_tie r : lookup "self.seq" r = VStr cs -> lookup "self.len" r = VN N ->
  exists v, MiniPy.exec uv_prim 0 g_uverskyHydropathy r = ORet v /\ numv v (fold_left (sstep (tm_g kd)) s 0%Q).
Proof.
  intros Hs Hl. rewrite uversky_shape, (step_assign _ _ _ _ kd_table), step_const by reflexivity.
  apply (tm_sum_ok kd_table kd kd_spec eq_refl "normalizedKD" eq_refl eq_refl uv_prim (fun _ => eq_refl)).
  repeat split; lk; assumption || reflexivity.
Qed.
End Uversky.

Section WW.
Definition ww_of (a : aa) : Q := match dict_get (three_val a) (dict_of ww_dict) with Some (VQ q) => q | _ => 0 end.
Lemma ww_spec a : dict_get (three_val a) (dict_of ww_dict) = Some (VQ (ww_of a)).
Proof. destruct a; reflexivity. Qed.
Definition ww_prim (name : string) (args : list value) : value := if String.eqb name "qdiv" then qdiv_prim args else VErr.

Lemma ww_shape : g_meanWWHydropathy = SSeq (SAssign "ww" (EConst ww_dict)) (SSeq (SAssign "translate" (EConst one_to_three)) (tm_sum "ww")).
Proof. reflexivity. Qed.

(* the Wimley-White mean with the table written in the data module (ww_of reads it off the translated dictionary) *)
Theorem meanWWHydropathy_tie r : lookup "self.seq" r = VStr cs -> lookup "self.len" r = VN N ->
  exists v, MiniPy.exec ww_prim 0 g_meanWWHydropathy r = ORet v /\ numv v (fold_left (sstep (tm_g ww_of)) s 0%Q).
Proof.
  intros Hs Hl. rewrite ww_shape, step_const, step_const by reflexivity.
  apply (tm_sum_ok ww_dict ww_of ww_spec eq_refl "ww" eq_refl eq_refl ww_prim (fun _ => eq_refl)).
  repeat split; lk; assumption || reflexivity.
Qed.
End WW.

Lemma table_mean_value (f : aa -> Q) : (1 <= N)%nat -> (fold_left (sstep (tm_g f)) s 0%Q == sumQ (map f s) / inject_Z (Z.of_nat N))%Q.
Proof. intros _. apply mean_value. Qed.

Section PPII.
Variable pp : aa -> Q.                     (* lkupTab.lookUpPPII(residue, mode) for the mode at hand: ANY table *)
Variable mv : value.
Hypothesis mv_ok : is_bad mv = false.
Definition pp_prim (name : string) (args : list value) : value :=
  if String.eqb name "qdiv" then qdiv_prim args
  else if String.eqb name "lkupTab.lookUpPPII" then
    match args with [VStr [c]; _] => match aa_of_char c with Some a => VQ (pp a) | None => VExc end | _ => VErr end
  else VErr.
Definition pp_vars : list (string * value) := [("self.seq"%string, VStr cs); ("mode"%string, mv)].
Definition pp_term : expr := ECall "lkupTab.lookUpPPII" [EIndex (EVar "self.seq") (EVar "i"); EVar "mode"].
Lemma pp_term_spec r a k : binds pp_vars r -> lookup "i" r = VN k -> nth_error s k = Some a -> MiniPy.eval pp_prim pp_term r = VQ (pp a).
Proof.
  intros [Hs [Hm _]] Hi Ha. unfold pp_term.
  rewrite (eval_call2 _ _ _ _ (kv a) mv (seq_at pp_prim "i" r k a Hs Hi Ha) (eq_trans (eval_var _ _) Hm) eq_refl mv_ok).
  unfold pp_prim. cbn [String.eqb Ascii.eqb Bool.eqb]. now rewrite aa_of_char_char.
Qed.

Theorem FPPII_chain_tie r : (1 <= N)%nat -> lookup "self.seq" r = VStr cs -> lookup "self.len" r = VN N -> lookup "mode" r = mv ->
  MiniPy.exec pp_prim 0 g_FPPII_chain r = ORet (VQ (Qred (fold_left (sstep pp) s 0%Q / inject_Z (Z.of_nat N)))).
Proof.
  intros HN Hs Hl Hm.
  destruct (sum_fun pp_prim "total" "i" pp_term pp (fun k _ => VN k) pp_vars (VInt 0) 0%Q (ERange (EConst (VInt 0)) (EVar "self.len"))
              (SReturn (ECall "qdiv" [EVar "total"; EVar "self.len"])) r eq_refl eq_refl
              pp_term_spec (NI 0)) as [r1 [v [E [H1 [N1 F1]]]]].
  - repeat split; assumption.
  - apply range_elems. lk. exact Hl.
  - refine (eq_trans E _). apply exec_return_ok; [|reflexivity].
    apply (qdiv_len pp_prim _ _ r1 v _ (fun _ => eq_refl) HN (eq_trans (eval_var _ _) H1) N1).
    rewrite eval_var, (F1 "self.len"%string eq_refl). exact Hl.
Qed.
End PPII.

Section MW.
Definition mw_dict : value := Eval vm_compute in match g_molecular_weight with SSeq (SAssign _ (EConst d)) _ => d | _ => VNone end.
Definition mw_of (a : aa) : Q := match dict_get (VStr [aa_char a]) (dict_of mw_dict) with Some (VQ q) => q | _ => 0 end.
Lemma mw_spec a : dict_get (VStr [aa_char a]) (dict_of mw_dict) = Some (VQ (mw_of a)).
Proof. destruct a; reflexivity. Qed.
Definition mw_vars : list (string * value) := [("MWTable"%string, mw_dict)].
Definition mw_term : expr := EIndex (EVar "MWTable") (EVar "r").
Lemma mw_term_spec r a k : binds mw_vars r -> lookup "r" r = kv a -> nth_error s k = Some a -> MiniPy.eval noprim mw_term r = VQ (mw_of a).
Proof.
  intros [Hm _] Hr _. apply (eval_index_dict _ _ _ (dict_of mw_dict) (kv a)); [rewrite eval_var; exact Hm | rewrite eval_var; exact Hr | reflexivity | apply mw_spec].
Qed.

Definition mw_water : expr := EMul (EConst (VQ (18 # 1))) (ESub (ELen (EVar "self.seq")) (EConst (VInt 1))).
Lemma mw_shape : g_molecular_weight =
  SSeq (SAssign "MWTable" (EConst mw_dict)) (SSeq (SAssign "total" (EConst (VQ (0 # 1)))) (SSeq (SFor "r" (EVar "self.seq") (sbody "total" mw_term))
    (SSeq (SAssign "total" (ESub (EVar "total") mw_water)) (SReturn (EVar "total"))))).
Proof. reflexivity. Qed.

(* the sum of the free amino-acid masses written in the data module, minus 18 per peptide bond *)
Theorem molecular_weight_tie r : lookup "self.seq" r = VStr cs ->
  MiniPy.exec noprim 0 g_molecular_weight r =
  ORet (VQ (Qred (fold_left (sstep mw_of) s (0 # 1) - Qred ((18 # 1) * inject_Z (Z.of_nat N - 1))))).
Proof.
  intros Hs. rewrite mw_shape, step_const by reflexivity.
  destruct (sum_fun noprim "total" "r" mw_term mw_of (fun _ a => kv a) mw_vars (VQ (0 # 1)) (0 # 1) (EVar "self.seq")
              (SSeq (SAssign "total" (ESub (EVar "total") mw_water)) (SReturn (EVar "total"))) (set "MWTable" mw_dict r)
              eq_refl eq_refl mw_term_spec (NQ (0 # 1)) (conj (lookup_set_eq _ _ _) I)) as [r1 [v [E [H1 [N1 F1]]]]].
  - rewrite eval_var. lk. rewrite Hs. cbn [elements]. now rewrite chr_elems.
  - rewrite E.
    assert (Hs1 : lookup "self.seq" r1 = VStr cs) by (rewrite (F1 "self.seq"%string eq_refl); lk; exact Hs).
    assert (Ew : MiniPy.eval noprim mw_water r1 = VQ (Qred ((18 # 1) * inject_Z (Z.of_nat N - 1)))).
    { apply eval_mul_Q_int; [reflexivity|]. apply eval_sub_int; [exact (seq_len noprim r1 Hs1) | reflexivity]. }
    rewrite (step_assign _ _ _ _ _ (eval_sub_num_Q _ _ _ _ _ _ (eq_trans (eval_var _ _) H1) (proj1 (numv_lib _ _) N1) Ew) eq_refl).
    apply exec_return_ok; [rewrite eval_var; lk; reflexivity | reflexivity].
Qed.

(* the table read off the data module is the published one *)
Lemma mw_of_is_table a : (mw_of a == Spec.Tables.mw a)%Q.
Proof. destruct a; reflexivity. Qed.
End MW.

Section Disorder.
Definition is_dis (a : aa) : bool := match a with Thr | Ala | Gly | Arg | Asp | His | Gln | Lys | Ser | Glu | Pro => true | _ => false end.
(* The body is  D = [...]; O = [...]; D_count = 0; O_count = 0; for i in self.seq: <dp_body>; return D_count / len(self.seq)
   (dp_spine, spelled out at the head of the theorem's proof): d_list is the value of the literal assigned to D, and
   dp_body is  if i in D: D_count += 1  else: O_count += 1. *)
Definition dp_spine : list stmt := Eval vm_compute in spine g_fraction_disorder_promoting.
Definition d_list : value := Eval vm_compute in match nth 0 dp_spine SSkip with SAssign _ e => MiniPy.eval noprim e [] | _ => VNone end.
Definition dp_body : stmt := Eval vm_compute in match nth 4 dp_spine SSkip with SFor _ _ b => b | _ => SSkip end.
Definition dp_prim (name : string) (args : list value) : value := if String.eqb name "qdiv" then qdiv_prim args else VErr.
Lemma in_dis a : v_in (kv a) d_list = VBool (is_dis a).
Proof. destruct a; reflexivity. Qed.

Lemma dp_loop sv : forall (t : list aa) (d o : Z) r, lookup "D" r = d_list -> lookup "D_count" r = VInt d -> lookup "O_count" r = VInt o -> lookup "self.seq" r = sv ->
  exists r' o', MiniPy.run_loop dp_prim 0 "i" dp_body (chars_val (map aa_char t)) r = ONorm r' /\
    lookup "D_count" r' = VInt (d + cnt is_dis t) /\ lookup "O_count" r' = VInt o' /\ lookup "D" r' = d_list /\ lookup "self.seq" r' = sv.
Proof.
  induction t as [|a t IH]; intros d o r HD Hd Ho Hs.
  - exists r, o. cbn [map MiniPy.run_loop cnt]. rewrite Z.add_0_r. repeat split; assumption.
  - cbn [map MiniPy.run_loop cnt]. set (r0 := set "i" (kv a) r). unfold dp_body at 1.
    assert (T : truthy (MiniPy.eval dp_prim (EIn (EVar "i") (EVar "D")) r0) = VBool (is_dis a)).
    { rewrite eval_in, !eval_var. unfold r0. lk. rewrite HD, in_dis. reflexivity. }
    destruct (is_dis a).
    + assert (E : MiniPy.eval dp_prim (EAdd (EVar "D_count") (EConst (VInt 1))) r0 = VInt (d + 1)) by (apply eval_add_int; [rewrite eval_var; unfold r0; lk; exact Hd | reflexivity]).
      rewrite (exec_if_true _ _ _ _ T), (exec_assign_ok _ _ _ _ E eq_refl), Z.add_assoc. apply (IH (d + 1) o); unfold r0; lk; assumption || reflexivity.
    + assert (E : MiniPy.eval dp_prim (EAdd (EVar "O_count") (EConst (VInt 1))) r0 = VInt (o + 1)) by (apply eval_add_int; [rewrite eval_var; unfold r0; lk; exact Ho | reflexivity]).
      rewrite (exec_if_false _ _ _ _ T), (exec_assign_ok _ _ _ _ E eq_refl), Z.add_0_l. apply (IH d (o + 1)); unfold r0; lk; assumption || reflexivity.
Qed.

(* the number of residues of the disorder-promoting list over the length *)
Theorem fraction_disorder_promoting_tie r : (1 <= N)%nat -> lookup "self.seq" r = VStr cs ->
  MiniPy.exec dp_prim 0 g_fraction_disorder_promoting r = ORet (VQ (Qred (inject_Z (cnt is_dis s) / inject_Z (Z.of_nat N)))).
Proof.
  intros HN Hs. rewrite exec_spine. change (spine g_fraction_disorder_promoting) with dp_spine.
  change dp_spine with [nth 0 dp_spine SSkip; nth 1 dp_spine SSkip; SAssign "D_count" (EConst (VInt 0)); SAssign "O_count" (EConst (VInt 0));
                        SFor "i" (EVar "self.seq") dp_body; SReturn (ECall "qdiv" [EVar "D_count"; ELen (EVar "self.seq")])].
  cbn [nth dp_spine]. rewrite (step_assign_list "D" _ _ _ d_list) by reflexivity.
  erewrite (step_assign_list "O") by reflexivity. rewrite step_const_list, step_const_list by reflexivity.
  match goal with |- context [MiniPy.exec_list dp_prim 0 _ ?rr] => set (r4 := rr) end.
  assert (Hs4 : lookup "self.seq" r4 = VStr cs) by (unfold r4; lk; exact Hs).
  destruct (dp_loop (VStr cs) s 0 0 r4) as [r5 [o5 [E5 [Hd5 [_ [_ Hs5]]]]]]; [unfold r4; lk; reflexivity .. | exact Hs4 |].
  cbn [Z.add] in Hd5. rewrite (step_norm_list _ _ _ r5 (eq_trans (exec_for_str "i" (EVar "self.seq") dp_body r4 cs Hs4) E5)).
  apply step_return_list; [|reflexivity].
  exact (qdiv_len dp_prim _ _ r5 _ _ (fun _ => eq_refl) HN (eq_trans (eval_var _ _) Hd5) (NI _) (seq_len _ _ Hs5)).
Qed.
End Disorder.

Section Fractions.
(* the keys of the AADICT literal in its order, which is that of Core.Residue.all20: its lemmas apply to order20 *)
Definition order20 : list aa := [Ala; Cys; Asp; Glu; Phe; Gly; His; Ile; Lys; Leu; Met; Asn; Pro; Gln; Arg; Ser; Thr; Val; Trp; Tyr].
Definition dmap (f : aa -> value) : list (value * value) := map (fun a => (VStr [aa_char a], f a)) order20.
Definition aadict0 : value := Eval vm_compute in match g_amino_acid_fraction with SSeq (SAssign _ (EConst d)) _ => d | _ => VNone end.
Lemma aadict0_eq : aadict0 = VDict (dmap (fun _ => VInt 0)). Proof. reflexivity. Qed.
Lemma dmap_ext f g : (forall b, f b = g b) -> dmap f = dmap g.
Proof. intros H. unfold dmap. apply map_ext. intros b. now rewrite H. Qed.
Lemma dmap_ext_in f g : (forall b, In b order20 -> f b = g b) -> dmap f = dmap g.
Proof. intros H. unfold dmap. apply map_ext_in. intros b Hb. now rewrite (H b Hb). Qed.
Lemma dget a f : dict_get (kv a) (dmap f) = Some (f a).
Proof. apply dict_get_kv_In, all20_complete. Qed.
Lemma dset a f v : dict_set (kv a) v (dmap f) = dmap (fun b => if aa_eqb b a then v else f b).
Proof. apply dict_set_kv; [apply all20_complete | apply all20_nodup]. Qed.
Definition af_prim (name : string) (args : list value) : value := if String.eqb name "qdiv" then qdiv_prim args else VErr.
Definition af_body1 : stmt := SSetItem "AADICT" (EVar "i") (EAdd (EIndex (EVar "AADICT") (EVar "i")) (EConst (VInt 1))).
Definition af_body2 : stmt := SSetItem "AADICT" (EVar "i") (ECall "qdiv" [EIndex (EVar "AADICT") (EVar "i"); ELen (EVar "self.seq")]).
Lemma af_shape : g_amino_acid_fraction =
  SSeq (SAssign "AADICT" (EConst aadict0)) (SSeq (SFor "i" (EVar "self.seq") af_body1) (SSeq (SFor "i" (EVar "AADICT") af_body2) (SReturn (EVar "AADICT")))).
Proof. reflexivity. Qed.

Lemma af_loop1 : forall (t : list aa) (c : aa -> Z) r, lookup "AADICT" r = VDict (dmap (fun b => VInt (c b))) ->
  exists r', MiniPy.run_loop af_prim 0 "i" af_body1 (chars_val (map aa_char t)) r = ONorm r' /\
    lookup "AADICT" r' = VDict (dmap (fun b => VInt (c b + cnt (aa_eqb b) t))) /\ lookup "self.seq" r' = lookup "self.seq" r.
Proof.
  induction t as [|a t IH]; intros c r Hd.
  - exists r. cbn [map MiniPy.run_loop cnt]. split; [reflexivity|]. split; [|reflexivity]. rewrite Hd. f_equal. apply dmap_ext. intros b. now rewrite Z.add_0_r.
  - cbn [map MiniPy.run_loop]. set (r0 := set "i" (kv a) r).
    assert (Ei : MiniPy.eval af_prim (EIndex (EVar "AADICT") (EVar "i")) r0 = VInt (c a)).
    { apply (eval_index_dict _ _ _ (dmap (fun b => VInt (c b))) (kv a)); [rewrite eval_var; unfold r0; lk; exact Hd | rewrite eval_var; unfold r0; lk; reflexivity | reflexivity | apply dget]. }
    unfold af_body1 at 1.
    rewrite (exec_setitem_dict "AADICT" _ _ r0 (dmap (fun b => VInt (c b))) (kv a) (VInt (c a + 1)));
      [| unfold r0; lk; exact Hd | rewrite eval_var; unfold r0; lk; reflexivity | apply eval_add_int; [exact Ei | reflexivity] | reflexivity | reflexivity].
    rewrite dset.
    destruct (IH (fun b => if aa_eqb b a then c a + 1 else c b) (set "AADICT" (VDict (dmap (fun b => if aa_eqb b a then VInt (c a + 1) else VInt (c b)))) r0)) as [r1 [E1 [H1 H2]]].
    { lk. f_equal. apply dmap_ext. intros b. destruct (aa_eqb b a); reflexivity. }
    exists r1. split; [exact E1|]. split.
    + rewrite H1. f_equal. apply dmap_ext. intros b. cbn [cnt]. f_equal.
      destruct (aa_eqb_spec b a) as [->|]; lia.
    + rewrite H2. unfold r0. lk. reflexivity.
Qed.

Definition frq (c : aa -> Z) (b : aa) : value := VQ (Qred (inject_Z (c b) / inject_Z (Z.of_nat N))).

Lemma af_loop2 (c : aa -> Z) : (1 <= N)%nat -> forall (t pre : list aa) r, order20 = pre ++ t -> NoDup order20 ->
  lookup "AADICT" r = VDict (dmap (fun b => if existsb (aa_eqb b) pre then frq c b else VInt (c b))) -> lookup "self.seq" r = VStr cs ->
  exists r', MiniPy.run_loop af_prim 0 "i" af_body2 (map (fun a => kv a) t) r = ONorm r' /\
    lookup "AADICT" r' = VDict (dmap (fun b => if existsb (aa_eqb b) (pre ++ t) then frq c b else VInt (c b))).
Proof.
  intros HN. induction t as [|a t IH]; intros pre r Ho Hnd Hd Hs.
  - exists r. cbn [map MiniPy.run_loop]. now rewrite app_nil_r.
  - cbn [map MiniPy.run_loop]. set (r0 := set "i" (kv a) r).
    assert (Hna : existsb (aa_eqb a) pre = false).
    { apply not_true_is_false. intros C. apply existsb_exists in C. destruct C as [x [Hx Ex]]. apply aa_eqb_eq in Ex. subst x.
      rewrite Ho in Hnd. apply NoDup_remove_2 in Hnd. apply Hnd. apply in_or_app. now left. }
    set (f0 := fun b => if existsb (aa_eqb b) pre then frq c b else VInt (c b)).
    assert (Ei : MiniPy.eval af_prim (EIndex (EVar "AADICT") (EVar "i")) r0 = VInt (c a)).
    { apply (eval_index_dict _ _ _ (dmap f0) (kv a)); [rewrite eval_var; unfold r0; lk; exact Hd | rewrite eval_var; unfold r0; lk; reflexivity | reflexivity |].
      rewrite dget. unfold f0. now rewrite Hna. }
    assert (Hs0 : lookup "self.seq" r0 = VStr cs) by (unfold r0; lk; exact Hs).
    unfold af_body2 at 1.
    rewrite (exec_setitem_dict "AADICT" _ _ r0 (dmap f0) (kv a) (frq c a));
      [| unfold r0; lk; exact Hd | rewrite eval_var; unfold r0; lk; reflexivity
       | exact (qdiv_len af_prim _ _ r0 _ _ (fun _ => eq_refl) HN Ei (NI _) (seq_len _ _ Hs0)) | reflexivity | reflexivity].
    rewrite dset.
    destruct (IH (pre ++ [a]) (set "AADICT" (VDict (dmap (fun b => if aa_eqb b a then frq c a else f0 b))) r0)) as [r1 [E1 H1]].
    { rewrite <- app_assoc. exact Ho. } { exact Hnd. }
    { lk. f_equal. apply dmap_ext. intros b. rewrite existsb_app. cbn [existsb]. rewrite orb_false_r. unfold f0.
      destruct (aa_eqb_spec b a) as [->|]; [now rewrite orb_true_r | now rewrite orb_false_r]. }
    { lk. exact Hs0. }
    exists r1. split; [exact E1|]. rewrite H1, <- app_assoc. reflexivity.
Qed.

(* the twenty fractions on EVERY non-empty sequence: for each letter, its number of occurrences over the length *)
Theorem amino_acid_fraction_tie r : (1 <= N)%nat -> lookup "self.seq" r = VStr cs ->
  MiniPy.exec af_prim 0 g_amino_acid_fraction r = ORet (VDict (dmap (frq (fun b => cnt (aa_eqb b) s)))).
Proof.
  intros HN Hs. rewrite af_shape, step_const by reflexivity.
  set (r0 := set "AADICT" aadict0 r).
  assert (Hs0 : lookup "self.seq" r0 = VStr cs) by (unfold r0; lk; exact Hs).
  destruct (af_loop1 s (fun _ => 0) r0) as [r1 [E1 [H1 Hs1]]]; [unfold r0; lk; apply aadict0_eq|].
  rewrite (step_norm _ _ _ r1 (eq_trans (exec_for_str "i" (EVar "self.seq") af_body1 r0 cs Hs0) E1)). cbn [Z.add] in H1.
  destruct (af_loop2 (fun b => cnt (aa_eqb b) s) HN order20 [] r1 eq_refl all20_nodup H1 (eq_trans Hs1 Hs0)) as [r2 [E2 H2]].
  assert (Ek : elements (MiniPy.eval af_prim (EVar "AADICT") r1) = Some (map (fun a => kv a) order20)).
  { rewrite eval_var, H1. cbn [elements]. unfold dmap. now rewrite map_map. }
  rewrite (step_norm _ _ _ r2 (eq_trans (exec_for_elems _ _ _ _ _ Ek) E2)).
  apply exec_return_ok; [|reflexivity]. rewrite eval_var, H2. reflexivity.
Qed.
End Fractions.
End Comp.
Print Assumptions amino_acid_fraction_tie.
Print Assumptions uverskyHydropathy_tie.
Print Assumptions meanWWHydropathy_tie.
Print Assumptions FPPII_chain_tie.
Print Assumptions molecular_weight_tie.
Print Assumptions fraction_disorder_promoting_tie.
Print Assumptions meanHydropathy_tie.

Lemma is_dis_spec a : is_dis a = existsb (aa_eqb a) Spec.Tables.disorder_promoting.
Proof. destruct a; reflexivity. Qed.

Example composition_runs : let s := [Lys; Gly; Pro; Trp] in
  MiniPy.exec dp_prim 0 g_fraction_disorder_promoting [("self.seq"%string, VStr (map aa_char s))] = ORet (VQ (3 # 4)) /\
  MiniPy.exec noprim 0 g_molecular_weight [("self.seq"%string, VStr (map aa_char s))] = ORet (VQ (Qred (fold_left (sstep mw_of) s (0 # 1) - Qred ((18 # 1) * 3)))).
Proof. split; vm_compute; reflexivity. Qed.
