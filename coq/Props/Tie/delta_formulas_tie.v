(* Tie (C01,C02): the arithmetic of Sequence.FCR/NCPR/sigma/deltaForm/delta/kappa, translated
   from the source by tools/py2coq/pyexpr, agrees with the hand model on complete grids
   (every composition with N <= 40; every blob composition for w <= 8; a 41x41 grid of
   delta/delta-max pairs straddling the clamp boundaries).  Bounded, stated as such. *)
From Coq Require Import List QArith.
From LC Require Import Core.QTools Spec.Delta Gen.GSeq.
Import ListNotations.
Local Open Scope Z_scope.

Definition comps_upto (B : Z) : list (Z * Z * Z) :=
  flat_map (fun N => flat_map (fun p => map (fun n => (p, n, N)) (zrange 0 (N - p))) (zrange 0 N)) (zrange 1 B).

Lemma fractions_tie :
  forallb (fun '(p, n, N) =>
     let z := N - p - n in
     Qeq_bool (g_fplus (qz p) (qz n) (qz z) (qz N)) (p # Z.to_pos N) &&
     Qeq_bool (g_fminus (qz p) (qz n) (qz z) (qz N)) (n # Z.to_pos N) &&
     Qeq_bool (g_fcr (qz p) (qz n) (qz z) (qz N)) ((p + n) # Z.to_pos N) &&
     Qeq_bool (g_ncpr (qz p) (qz n) (qz z) (qz N)) ((p - n) # Z.to_pos N)) (comps_upto 40) = true.
Proof. vm_compute. reflexivity. Qed.

Lemma sigma_tie :
  forallb (fun '(p, n, N) => Qeq_bool (g_sigma (qz p) (qz n) (qz (N - p - n)) (qz N)) (sigma_c p n N))
          (comps_upto 40) = true.
Proof. vm_compute. reflexivity. Qed.

Definition qgrid : list Q := [0; 1 # 3; 1; 49 # 64; 2 # 7]%Q.

Lemma delta_step_tie :
  forallb (fun '(bp, bn, w) =>
     forallb (fun sg => forallb (fun ans => forallb (fun nb =>
        Qeq_bool (g_delta_step ans sg (qz bp) (qz bn) (qz w) (qz nb))
                 (ans + sqQ (sg - sigma_c bp bn w) / qz nb)) [1; 2; 7; 300]) qgrid) qgrid)
     (comps_upto 8) = true.
Proof. vm_compute. reflexivity. Qed.

Lemma nblobs_tie :
  forallb (fun N => forallb (fun w => Qeq_bool (g_nblobs (qz N) (qz w)) (qz (N - w + 1))) (zrange 1 12)) (zrange 0 30) = true.
Proof. vm_compute. reflexivity. Qed.

Lemma blob_sizes_tie : g_blob_sizes = [5%nat; 6%nat].
Proof. reflexivity. Qed.

Theorem delta_mean_tie : forall df, (g_delta df == (df 5%nat + df 6%nat) / 2)%Q.
Proof. intros df. unfold g_delta. field. Qed.

Definition kgrid : list Q := map (fun k => (k # 20)%Q) (zrange 0 40).

Lemma kappa_tie :
  forallb (fun dl => forallb (fun dm => Qeq_bool (g_kappa dl dm) (kappa_c dl dm)) kgrid) kgrid = true.
Proof. vm_compute. reflexivity. Qed.

Print Assumptions delta_mean_tie.
Print Assumptions kappa_tie.
