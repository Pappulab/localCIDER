(* Tie (C11): allowed complexity types.  (The window-position arithmetic of get_indexed_complexity_vector and the
   shape of get_WF/LC/LZW_complexity are tied for every input in minipy_cxglue_tie.v.) *)
From Coq Require Import List String.
From LC Require Import Gen.GParams.
Import ListNotations.

Lemma complexity_types_tie : g_complexity_types = ["WF"; "LC"; "LZW"]%string.
Proof. reflexivity. Qed.

