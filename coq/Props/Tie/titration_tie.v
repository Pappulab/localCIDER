(* Tie (C09): titratable residue lists and signs, the Henderson–Hasselbalch term shapes, the pKa table
   (EMBOSS values, see tables_tie), the pH guard bounds and the constants / statement shapes of the
   isoelectric-point loop, extracted from the source. *)
From Coq Require Import List QArith String.
From LC Require Import Model.Titration Gen.GSeq Gen.GParams.
Import ListNotations.
Local Open Scope string_scope.

Lemma titratable_tie :
  map fst (filter snd titratable) = g_titr_positive /\
  map fst (filter (fun rb => negb (snd rb)) titratable) = g_titr_negative.
Proof. split; reflexivity. Qed.

Lemma pi_constants_tie : g_pi_constants =
  [("min_pH", 0 # 1); ("max_pH", 14 # 1); ("threshold", 1 # 50); ("breakcount", 0 # 1); ("errorcount", 0 # 1)]%Q.
Proof. reflexivity. Qed.

Lemma pH_guard_tie : Qeq_bool g_pH_lo 0 && Qeq_bool g_pH_hi 14 = true.
Proof. reflexivity. Qed.
