(* Tie (C12) — SEMANTIC: the user-alphabet block of SequenceComplexity.reduce_alphabet (`if len(userAlphabet) > 0:` — the
   dictionary check, the validation loop over TWENTY_AAs, the residue-by-residue application, the first-occurrence
   alphabet loop, the returned pair), translated from the working tree into a Core.MiniPy term on every run, is proved
   for EVERY sequence and EVERY dictionary of strings: it raises exactly when Model.Alphabets.user_accepted is false,
   and otherwise returns the pointwise image of the sequence under uapply and an alphabet that lists exactly the
   images of the 20 residues.  (The 12 predefined cascades: alphabets_tie.v.) *)
From Coq Require Import List String Ascii ZArith Bool Arith Lia.
From LC Require Import Core.Residue Core.MiniPy Core.MiniPyData Core.MiniPyExec Model.Alphabets Gen.GMiniPy.
Import ListNotations.
Local Notation exec := (MiniPy.exec noprim 0).
Local Notation run_loop := (MiniPy.run_loop noprim 0).
Local Notation eval := (MiniPy.eval noprim).

(* TWENTY_AAs in the order of the source *)
Definition order_src : list aa :=
  [Arg; His; Lys; Asp; Glu; Ser; Thr; Asn; Gln; Cys; Gly; Pro; Ala; Ile; Leu; Met; Phe; Trp; Tyr; Val].

Definition dict_val (u : udict) : value := VDict (map (fun p => (sv (fst p), sv (snd p))) u).

Definition ru_env (s : list aa) (u : udict) (x conv aav alph val : value) : env :=
  [("self"%string, VNone); ("sequence"%string, VStr (map aa_char s)); ("alphabetSize"%string, VInt 20);
   ("userAlphabet"%string, dict_val u); ("x"%string, x); ("converted"%string, conv); ("aa"%string, aav);
   ("alphabet"%string, alph); ("val"%string, val)].

Definition ru_spine : list stmt := Eval vm_compute in spine g_reduce_user.
Lemma ru_spine_eq : spine g_reduce_user = ru_spine.
Proof. vm_compute. reflexivity. Qed.

Definition sIf : stmt := Eval vm_compute in nth 0 ru_spine SSkip.
Definition sA : stmt := Eval vm_compute in nth 1 ru_spine SSkip.
Definition sB : stmt := Eval vm_compute in nth 2 ru_spine SSkip.
Definition sAl : stmt := Eval vm_compute in nth 3 ru_spine SSkip.
Definition sC : stmt := Eval vm_compute in nth 4 ru_spine SSkip.
Definition sRet : stmt := Eval vm_compute in nth 5 ru_spine SSkip.
Lemma ru_spine_parts : ru_spine = [sIf; sA; sB; sAl; sC; sRet].
Proof. reflexivity. Qed.
Definition bodyA : stmt := Eval vm_compute in match sA with SFor _ _ b => b | _ => SSkip end.
Definition bodyB : stmt := Eval vm_compute in match sB with SFor _ _ b => b | _ => SSkip end.
Definition bodyC : stmt := Eval vm_compute in match sC with SFor _ _ b => b | _ => SSkip end.
Definition keys20 : expr := Eval vm_compute in match sA with SFor _ e _ => e | _ => EConst VNone end.
Lemma sA_eq : sA = SFor "x" keys20 bodyA. Proof. reflexivity. Qed.
Lemma sB_eq : sB = SFor "x" (EVar "sequence") bodyB. Proof. reflexivity. Qed.
Lemma sC_eq : sC = SFor "x" keys20 bodyC. Proof. reflexivity. Qed.
Lemma keys20_elems r : elements (eval keys20 r) = Some (map (fun a => kv a) order_src).
Proof. reflexivity. Qed.

Definition in20 (v : string) : bool := existsb (String.eqb v) (map aa_str order_src).
Lemma in20_val v : existsb (veqb (sv v)) (map (fun a => kv a) order_src) = in20 v.
Proof.
  unfold in20. rewrite <- existsb_sv, map_map. reflexivity.
Qed.

Definition ok_key (u : udict) (a : aa) : bool :=
  match assoc (aa_str a) u with Some v => in20 v | None => false end.
Definition val_of (u : udict) (a : aa) : string := match assoc (aa_str a) u with Some v => v | None => EmptyString end.

(* userAlphabet[x] *)
Lemma user_entry r u a : lookup "userAlphabet" r = dict_val u -> lookup "x" r = kv a ->
  eval (EIndex (EVar "userAlphabet") (EVar "x")) r = match assoc (aa_str a) u with Some v => sv v | None => VExc end.
Proof.
  intros Hu Hx. rewrite (eval_index_key (EVar "userAlphabet") (EVar "x") r _ _ Hu Hx eq_refl), kv_sv, dict_get_assoc.
  destruct (assoc (aa_str a) u); reflexivity.
Qed.

Lemma user_entry_ok r u a : lookup "userAlphabet" r = dict_val u -> lookup "x" r = kv a -> ok_key u a = true ->
  eval (EIndex (EVar "userAlphabet") (EVar "x")) r = sv (val_of u a).
Proof.
  intros Hu Hx. rewrite (user_entry r u a Hu Hx). unfold ok_key, val_of.
  destruct (assoc (aa_str a) u); [reflexivity | discriminate].
Qed.

(* loop A: validation of the 20 keys *)
Lemma stepA s u x conv aav alph val a :
  exec bodyA (set "x" (kv a) (ru_env s u x conv aav alph val)) =
  if ok_key u a then ONorm (ru_env s u (kv a) (sv (val_of u a)) aav alph val) else ORaise.
Proof.
  unfold bodyA, ok_key, val_of. set (r := set "x" (kv a) (ru_env s u x conv aav alph val)).
  pose proof (user_entry r u a eq_refl eq_refl) as E.
  destruct (assoc (aa_str a) u) as [v|]; [|apply assign_exc, E].
  rewrite (step_assign _ _ _ _ _ E eq_refl), (exec_raise_unless_in _ _ _ (in20 v)) by (rewrite <- in20_val; reflexivity).
  destruct (in20 v); reflexivity.
Qed.

Lemma loopA s u aav alph val ks : forall x conv,
  if forallb (ok_key u) ks
  then exists x' conv', run_loop "x" bodyA (map (fun a => kv a) ks) (ru_env s u x conv aav alph val) = ONorm (ru_env s u x' conv' aav alph val)
  else run_loop "x" bodyA (map (fun a => kv a) ks) (ru_env s u x conv aav alph val) = ORaise.
Proof.
  induction ks as [|a ks IH]; intros x conv; cbn [forallb map MiniPy.run_loop].
  - exists x, conv. reflexivity.
  - rewrite stepA. destruct (ok_key u a); cbn [andb]; [apply IH | reflexivity].
Qed.

(* loop B: the residues of the sequence, one by one *)
Lemma stepB s u x conv l alph val a : ok_key u a = true ->
  exec bodyB (set "x" (kv a) (ru_env s u x conv (VList l) alph val)) = ONorm (ru_env s u (kv a) conv (VList (l ++ [sv (val_of u a)])) alph val).
Proof.
  intros Hok. unfold bodyB. set (r := set "x" (kv a) (ru_env s u x conv (VList l) alph val)).
  rewrite (exec_append_ok "aa" _ r l _ eq_refl (user_entry_ok r u a eq_refl eq_refl Hok) eq_refl). reflexivity.
Qed.

(* loop C: the alphabet, first occurrences in the order of TWENTY_AAs *)
Definition addnew (acc : list string) (v : string) : list string := if existsb (String.eqb v) acc then acc else acc ++ [v].

Lemma stepC s u x conv aav acc val a : ok_key u a = true ->
  exec bodyC (set "x" (kv a) (ru_env s u x conv aav (VList (map (fun x => sv x) acc)) val)) =
  ONorm (ru_env s u (kv a) conv aav (VList (map (fun x => sv x) (addnew acc (val_of u a)))) (sv (val_of u a))).
Proof.
  intros Hok. unfold bodyC, addnew. set (r := set "x" (kv a) (ru_env s u x conv aav (VList (map (fun x => sv x) acc)) val)).
  rewrite (step_assign _ _ _ _ _ (user_entry_ok r u a eq_refl eq_refl Hok) eq_refl), exec_if.
  replace (truthy _) with (VBool (negb (existsb (String.eqb (val_of u a)) acc))) by (rewrite <- existsb_sv; reflexivity).
  destruct (existsb (String.eqb (val_of u a)) acc); [reflexivity|]. cbn [negb].
  rewrite (exec_append_ok "alphabet" (EVar "val") (set "val" (sv (val_of u a)) r) (map (fun x => sv x) acc) _ eq_refl eq_refl eq_refl), map_app.
  reflexivity.
Qed.

Lemma loopC s u conv aav : (forall a, ok_key u a = true) -> forall t x acc val,
  exists x' val', run_loop "x" bodyC (map (fun a => kv a) t) (ru_env s u x conv aav (VList (map (fun x => sv x) acc)) val) =
                  ONorm (ru_env s u x' conv aav (VList (map (fun x => sv x) (fold_left addnew (map (val_of u) t) acc))) val').
Proof.
  intros Hok. induction t as [|a t IH]; intros x acc val; cbn [map MiniPy.run_loop fold_left].
  - exists x, val. reflexivity.
  - rewrite (stepC _ _ _ _ _ _ _ _ (Hok a)). apply IH.
Qed.

(* the user-alphabet block of reduce_alphabet, for EVERY sequence and EVERY dictionary of strings *)
Theorem reduce_user_tie s u :
  exec g_reduce_user (ru_env s u VNone VNone (VList []) VNone VNone) =
  if forallb (ok_key u) order_src
  then ORet (VList [VStr (List.concat (map (fun a => la (val_of u a)) s));
                    VList (map (fun x => sv x) (fold_left addnew (map (val_of u) order_src) []))])
  else ORaise.
Proof.
  rewrite exec_spine, ru_spine_eq, ru_spine_parts. cbn [MiniPy.exec_list].
  change (exec sIf (ru_env s u VNone VNone (VList []) VNone VNone)) with (ONorm (ru_env s u VNone VNone (VList []) VNone VNone)).
  cbv beta iota. rewrite sA_eq, (exec_for_elems _ _ _ _ _ (keys20_elems _)).
  pose proof (loopA s u (VList []) VNone VNone order_src VNone VNone) as HA.
  destruct (forallb (ok_key u) order_src) eqn:Hacc; [|rewrite HA; reflexivity].
  destruct HA as (x1 & c1 & ->).
  assert (Hok : forall a, ok_key u a = true).
  { intros a. rewrite forallb_forall in Hacc. apply Hacc, order_src_complete. }
  rewrite sB_eq. erewrite exec_for_elems by apply elements_seq_val.
  destruct (append_loop "x" bodyB (fun a => kv a) (fun a => sv (val_of u a)) (fun l x => ru_env s u x c1 (VList l) VNone VNone)
              (fun l x a => stepB s u x c1 l VNone VNone a (Hok a)) s [] x1) as [x2 ->]. cbn [app].
  change (exec sAl (ru_env s u x2 c1 (VList (map (fun a => sv (val_of u a)) s)) VNone VNone))
    with (ONorm (ru_env s u x2 c1 (VList (map (fun a => sv (val_of u a)) s)) (VList (map (fun x => sv x) [])) VNone)).
  cbv beta iota. rewrite sC_eq, (exec_for_elems _ _ _ _ _ (keys20_elems _)).
  destruct (loopC s u c1 (VList (map (fun a => sv (val_of u a)) s)) Hok order_src x2 [] VNone) as (x3 & v3 & ->).
  unfold sRet. erewrite exec_return_ok; [reflexivity | | reflexivity]. apply eval_listlit2; [|reflexivity..].
  eapply eval_join_list; [reflexivity|]. rewrite <- (map_map (fun a => la (val_of u a)) VStr). apply join_strs_nil_concat.
Qed.

Lemma in20_iff v : in20 v = true <-> exists b, v = aa_str b.
Proof.
  unfold in20. rewrite existsb_exists. split.
  - intros [x [Hin E]]. apply in_map_iff in Hin. destruct Hin as [b [<- _]]. apply String.eqb_eq in E. exists b. exact E.
  - intros [b ->]. exists (aa_str b). split; [apply in_map, order_src_complete | apply String.eqb_refl].
Qed.

Lemma ok_key_ulookup u a : ok_key u a = match ulookup u a with Some _ => true | None => false end.
Proof.
  unfold ok_key, ulookup. destruct (assoc (aa_str a) u) as [v|]; [|reflexivity].
  destruct (in20 v) eqn:E.
  - apply in20_iff in E. destruct E as [b ->]. cbn [aa_str str1 la]. now rewrite aa_of_char_char.
  - destruct (la v) as [|c [|d l]] eqn:El; try reflexivity.
    destruct (aa_of_char c) as [b|] eqn:Ec; [|reflexivity]. exfalso.
    assert (in20 v = true); [|congruence]. apply in20_iff. exists b.
    apply aa_of_char_some in Ec. subst c. destruct v as [|c' [|d' v']]; cbn [la] in El; try discriminate. injection El as ->. reflexivity.
Qed.

Theorem accepted_is_models u : forallb (ok_key u) order_src = user_accepted u.
Proof.
  unfold user_accepted. apply eq_true_iff_eq. rewrite !forallb_forall. split; intros H a _.
  - rewrite <- ok_key_ulookup. apply H, order_src_complete.
  - rewrite ok_key_ulookup. apply H. apply all20_complete.
Qed.

Lemma val_of_uapply u a : ok_key u a = true -> val_of u a = aa_str (uapply u a).
Proof.
  unfold ok_key, val_of, uapply, ulookup. destruct (assoc (aa_str a) u) as [v|]; [|discriminate]. intros E.
  apply in20_iff in E. destruct E as [b ->]. cbn [aa_str str1 la]. now rewrite aa_of_char_char.
Qed.

Theorem reduced_sequence_is_models u s : user_accepted u = true ->
  List.concat (map (fun a => la (val_of u a)) s) = map aa_char (map (uapply u) s).
Proof.
  intros H. rewrite <- accepted_is_models in H. rewrite forallb_forall in H.
  induction s as [|a s IH]; [reflexivity|]. cbn [map List.concat]. rewrite IH, val_of_uapply by apply H, order_src_complete.
  destruct (uapply u a); reflexivity.
Qed.

Lemma addnew_In acc v x : In x (addnew acc v) <-> In x acc \/ v = x.
Proof.
  unfold addnew. destruct (existsb (String.eqb v) acc) eqn:E.
  - split; [tauto|]. intros [H| <-]; [exact H|]. apply existsb_exists in E. destruct E as [y [Hy Ey]]. apply String.eqb_eq in Ey. now subst.
  - rewrite in_app_iff. cbn [In]. tauto.
Qed.

Lemma fold_addnew_In vs : forall acc x, In x (fold_left addnew vs acc) <-> In x acc \/ In x vs.
Proof.
  induction vs as [|v vs IH]; intros acc x; cbn [fold_left]; [cbn; tauto|].
  rewrite IH, addnew_In. cbn [In]. tauto.
Qed.

(* the returned alphabet lists exactly the images of the 20 residues (the model's dedup lists the same set) *)
Theorem alphabet_is_the_image u : user_accepted u = true -> forall x,
  In x (fold_left addnew (map (val_of u) order_src) []) <-> exists a, x = aa_str (uapply u a).
Proof.
  intros H x. rewrite <- accepted_is_models in H. rewrite forallb_forall in H.
  rewrite fold_addnew_In, in_map_iff. split.
  - intros [[]|[a [<- Ha]]]. exists a. apply val_of_uapply. apply H. exact Ha.
  - intros [a ->]. right. exists a. split; [apply val_of_uapply, H|]; apply order_src_complete.
Qed.
Print Assumptions reduce_user_tie.
Print Assumptions alphabet_is_the_image.

(* the public getters (SequenceParameters) are exactly a return of the backend call with their own arguments *)
Lemma fw_get_reduced_alphabet_sequence : g_fw_get_reduced_alphabet_sequence = SReturn (ECall "SeqObj.get_reducedAlphabetSequence"%string [EVar "alphabetSize"%string; EVar "userAlphabet"%string]). Proof. reflexivity. Qed.
(* the backend method between the getter and the complexity object: exactly a return of reduce_alphabet(own sequence, size, user alphabet) *)
Lemma fw_get_reducedAlphabetSequence : g_get_reducedAlphabetSequence = SReturn (ECall "ComplexityObject.reduce_alphabet"%string [EVar "self.seq"%string; EVar "alphabetSize"%string; EVar "userAlphabet"%string]). Proof. reflexivity. Qed.
