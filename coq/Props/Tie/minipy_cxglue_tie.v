(* Tie (C11) — SEMANTIC: the glue around the three complexity measures, translated from the working tree on every run
   into Core.MiniPy terms: SequenceComplexity.get_indexed_complexity_vector (the positions reported with a profile),
   get_WF_complexity / get_LC_complexity / get_LZW_complexity (reduce the alphabet, run the measure, index the vector),
   Sequence.get_linear_*_complexity (window guard, then the complexity object) and SequenceParameters.get_linear_complexity
   (case-insensitive dispatch on the type).  `a // b` is the primitive floordiv (Python's floor division on integers,
   ZeroDivisionError for b = 0), np.arange(a, b, s, dtype=int) the primitive arange3, np.vstack((row, row)) the two rows. *)
From Coq Require Import List String Ascii ZArith Lia.
From LC Require Import Core.MiniPy Core.MiniPyData Core.MiniPyExec Model.Complexity Gen.GMiniPy.
Import ListNotations.
Local Open Scope Z_scope.

Definition floordiv_prim (args : list value) : value :=
  match args with [VInt a; VInt b] => if b =? 0 then VExc else VInt (a / b) | _ => VErr end.
Definition arange3_prim (args : list value) : value :=
  match args with
  | [VInt a; VInt b; VInt s] => if s <=? 0 then VErr else VList (map (fun k => VInt (a + Z.of_nat k * s)) (seq 0 (Z.to_nat ((b - a + s - 1) / s))))
  | _ => VErr
  end.
Definition vstack_rows (args : list value) : value :=
  match args with [VList [VList a; VList b]] => VList [VList a; VList b] | _ => VErr end.

Section Indexed.
Variable other : string -> list value -> value.
Definition ix_prim (name : string) (args : list value) : value :=
  if String.eqb name "floordiv" then floordiv_prim args
  else if String.eqb name "arange3" then arange3_prim args
  else if String.eqb name "np.vstack" then vstack_rows args
  else other name args.
Local Notation exec := (MiniPy.exec ix_prim 0).
Local Notation eval := (MiniPy.eval ix_prim).

Lemma fd a b r x y : eval a r = VInt x -> eval b r = VInt y -> y <> 0 -> eval (ECall "floordiv" [a; b]) r = VInt (x / y).
Proof.
  intros Ha Hb Hy. rewrite (eval_call2 _ _ _ _ (VInt x) (VInt y) Ha Hb eq_refl eq_refl).
  unfold ix_prim. cbn [String.eqb Ascii.eqb Bool.eqb floordiv_prim]. destruct (Z.eqb_spec y 0); [contradiction | reflexivity].
Qed.

Lemma ret_vstack r (a b : list value) : lookup "indices" r = VList a -> lookup "complexity_vector" r = VList b ->
  exec (SReturn (ECall "np.vstack" [EListLit [EVar "indices"; EVar "complexity_vector"]])) r = ORet (VList [VList a; VList b]).
Proof.
  intros Ha Hb. apply exec_return_ok; [| reflexivity].
  rewrite (eval_call1 _ _ _ (VList [VList a; VList b])); [reflexivity | | reflexivity].
  apply eval_listlit2; [rewrite eval_var; exact Ha | rewrite eval_var; exact Hb | reflexivity | reflexivity].
Qed.

Lemma arange_len sp K : 1 <= sp -> (sp * K + sp - 1) / sp = K.
Proof. intros Hs. replace (sp * K + sp - 1) with (K * sp + (sp - 1)) by lia. rewrite Z.div_add_l by lia. rewrite Z.div_small by lia. lia. Qed.

Lemma arange_positions (N K : Z) : 1 <= K <= N ->
  let sp := N / K in let rem := N - sp * K in
  let fs := if rem mod 2 =? 0 then rem / 2 else (rem - 1) / 2 in
  let fe := if rem mod 2 =? 0 then rem / 2 else (rem + 1) / 2 in
  arange3_prim [VInt (fs + 1 + sp / 2); VInt (N + 1 - fe + sp / 2); VInt sp] = VList (map VInt (positions N K)).
Proof.
  intros HK sp rem fs fe.
  assert (Hsp : 1 <= sp) by (apply Z.div_le_lower_bound; lia).
  assert (Hfse : fs + fe = rem) by (unfold fs, fe; destruct (Z.eqb_spec (rem mod 2) 0); Z.div_mod_to_equations; lia).
  unfold arange3_prim. destruct (Z.leb_spec sp 0); [lia|].
  replace (N + 1 - fe + sp / 2 - (fs + 1 + sp / 2) + sp - 1) with (sp * K + sp - 1) by lia.
  rewrite arange_len by lia. unfold positions. rewrite map_map. reflexivity.
Qed.

Lemma flanks_tie r rem : lookup "remainder" r = VInt rem ->
  exec (SIf (EEq (EMod (EVar "remainder") (EConst (VInt 2))) (EConst (VInt 0)))
          (SSeq (SAssign "flank_start" (ECall "floordiv" [EVar "remainder"; EConst (VInt 2)])) (SAssign "flank_end" (ECall "floordiv" [EVar "remainder"; EConst (VInt 2)])))
          (SSeq (SAssign "flank_start" (ECall "floordiv" [ESub (EVar "remainder") (EConst (VInt 1)); EConst (VInt 2)]))
                (SAssign "flank_end" (ECall "floordiv" [EAdd (EVar "remainder") (EConst (VInt 1)); EConst (VInt 2)])))) r =
  ONorm (set "flank_end" (VInt (if rem mod 2 =? 0 then rem / 2 else (rem + 1) / 2))
          (set "flank_start" (VInt (if rem mod 2 =? 0 then rem / 2 else (rem - 1) / 2)) r)).
Proof.
  intros Hr. rewrite exec_if, (eval_eq_int _ _ _ (rem mod 2) 0); [| apply eval_mod_int; [var Hr | reflexivity | discriminate] | reflexivity].
  cbn [truthy]. destruct (rem mod 2 =? 0).
  - rewrite exec_seq, (exec_assign_ok _ _ _ (VInt (rem / 2))); [| apply fd; [var Hr | reflexivity | discriminate] | reflexivity].
    apply exec_assign_ok; [apply fd; [var Hr | reflexivity | discriminate] | reflexivity].
  - rewrite exec_seq, (exec_assign_ok _ _ _ (VInt ((rem - 1) / 2))); [| apply fd; [apply eval_sub_int; [var Hr | reflexivity] | reflexivity | discriminate] | reflexivity].
    apply exec_assign_ok; [apply fd; [apply eval_add_int; [var Hr | reflexivity] | reflexivity | discriminate] | reflexivity].
Qed.

Definition ix_env (vec : list value) (N : Z) : env := [("complexity_vector"%string, VList vec); ("seq_len"%string, VInt N)].

(* WHOLE FUNCTION: a vector of K values over a sequence of length N >= K >= 1 gets the model's K positions *)
Theorem indexed_tie (vec : list value) (N K : Z) r : K = Z.of_nat (List.length vec) ->
  lookup "complexity_vector" r = VList vec -> lookup "seq_len" r = VInt N -> 1 <= K <= N -> (forall v, In v vec -> is_bad v = false) ->
  exec g_indexed r = ORet (VList [VList (map VInt (positions N K)); VList vec]).
Proof.
  intros HKdef Hv HN HK _. unfold g_indexed.
  rewrite (step_assign _ _ _ _ (VInt K)); [| cbn [MiniPy.eval]; rewrite Hv, HKdef; reflexivity | reflexivity].
  set (sp := N / K).
  rewrite (step_assign _ _ _ _ (VInt sp)); [| apply fd; [var HN | var eq_refl | lia] | reflexivity].
  set (rem := N - sp * K).
  rewrite (step_assign _ _ _ _ (VInt rem)); [| apply eval_sub_int; [var HN | apply eval_mul_int; var eq_refl] | reflexivity].
  rewrite (step_norm _ _ _ _ (flanks_tie _ rem (lookup_set_eq _ _ _))).
  set (fs := if rem mod 2 =? 0 then rem / 2 else (rem - 1) / 2).
  set (fe := if rem mod 2 =? 0 then rem / 2 else (rem + 1) / 2).
  rewrite (step_assign _ _ _ _ (VInt (fs + 1 + sp / 2))); [| | reflexivity].
  2: { apply eval_add_int; [apply eval_add_int; [var eq_refl | reflexivity] | apply fd; [var eq_refl | reflexivity | discriminate]]. }
  rewrite (step_assign _ _ _ _ (VInt (N + 1 - fe + sp / 2))); [| | reflexivity].
  2: { apply eval_add_int; [apply eval_sub_int; [apply eval_add_int; [var HN | reflexivity] | var eq_refl] | apply fd; [var eq_refl | reflexivity | discriminate]]. }
  rewrite (step_assign _ _ _ _ (VList (map VInt (positions N K)))); [| | reflexivity].
  2: { rewrite (eval_call3 _ _ _ _ _ (VInt (fs + 1 + sp / 2)) (VInt (N + 1 - fe + sp / 2)) (VInt sp)); [| var eq_refl | var eq_refl | var eq_refl | reflexivity | reflexivity | reflexivity].
       exact (arange_positions N K HK). }
  apply ret_vstack; [lk; reflexivity | lk; exact Hv].
Qed.

(* an empty vector: ZeroDivisionError *)
Theorem indexed_empty (N : Z) r : lookup "complexity_vector" r = VList [] -> lookup "seq_len" r = VInt N -> exec g_indexed r = ORaise.
Proof.
  intros Hv HN. unfold g_indexed.
  rewrite (step_assign _ _ _ _ (VInt 0)); [| cbn [MiniPy.eval]; rewrite Hv; reflexivity | reflexivity]. apply assign_exc.
  rewrite (eval_call2 _ _ _ _ (VInt N) (VInt 0)); [reflexivity | var HN | var eq_refl | reflexivity | reflexivity].
Qed.
End Indexed.
Print Assumptions indexed_tie.

(* get_WF_complexity / get_LC_complexity / get_LZW_complexity: reduce the alphabet, run the measure, index the vector *)
Section Measures.
Variable ra : list value -> value.        (* self.reduce_alphabet(sequence, alphabetSize, userAlphabet): tied in minipy_alphabet_tie.v *)
Variable meas : list value -> value.      (* self.CWF / self.LC / self.LZW: tied in minipy_complexity_tie.v *)
Variable mname : string.
Hypothesis mname_ok : String.eqb mname "reduce_alphabet" = false /\ String.eqb mname "get_indexed_complexity_vector" = false.
Definition noprim (_ : string) (_ : list value) : value := VErr.
Definition run_indexed (args : list value) : value :=
  match args with
  | [v; n] => match MiniPy.exec (ix_prim noprim) 0 g_indexed [("complexity_vector"%string, v); ("seq_len"%string, n)] with ORet x => x | ORaise => VExc | _ => VErr end
  | _ => VErr
  end.
Definition m_prim (name : string) (args : list value) : value :=
  if String.eqb name "reduce_alphabet" then ra args
  else if String.eqb name "get_indexed_complexity_vector" then run_indexed args
  else if String.eqb name mname then meas args
  else VErr.
Local Notation exec := (MiniPy.exec m_prim 0).
Local Notation eval := (MiniPy.eval m_prim).

Variables (s : list ascii) (a u red alph : value) (extra : list (string * value)) (vec : list value).
Hypothesis a_ok : is_bad a = false.
Hypothesis u_ok : is_bad u = false.
Hypothesis red_ok : is_bad red = false.
Hypothesis alph_ok : is_bad alph = false.
Hypothesis ra_spec : ra [VStr s; a; u] = VList [red; alph].
Hypothesis extra_ok : Forall (fun xv => is_bad (snd xv) = false) extra.
Hypothesis meas_spec : meas (red :: alph :: map snd extra) = VList vec.
Hypothesis vec_ok : forall v, In v vec -> is_bad v = false.
Hypothesis vec_len : 1 <= Z.of_nat (List.length vec) <= Z.of_nat (List.length s).

(* the common shape of the three functions: only the measure's name and its extra arguments (window, step[, word]) differ *)
Definition glue_term : stmt :=
  SSeq (SSeq (SAssign "$1" (ECall "reduce_alphabet" [EVar "sequence"; EVar "alphabetSize"; EVar "userAlphabet"]))
             (SSeq (SAssign "reduced_sequence" (EIndex (EVar "$1") (EConst (VInt 0)))) (SAssign "alphabet" (EIndex (EVar "$1") (EConst (VInt 1))))))
       (SSeq (SAssign "complexity_vector" (ECall mname (EVar "reduced_sequence" :: EVar "alphabet" :: map (fun xv => EVar (fst xv)) extra)))
             (SReturn (ECall "get_indexed_complexity_vector" [EVar "complexity_vector"; ELen (EVar "sequence")]))).

Definition fresh (x : string) : Prop := String.eqb x "$1" = false /\ String.eqb x "reduced_sequence" = false /\ String.eqb x "alphabet" = false.

Theorem glue_tie r : lookup "sequence" r = VStr s -> lookup "alphabetSize" r = a -> lookup "userAlphabet" r = u ->
  Forall (fun xv => fresh (fst xv) /\ lookup (fst xv) r = snd xv) extra ->
  exec glue_term r = ORet (VList [VList (map VInt (positions (Z.of_nat (List.length s)) (Z.of_nat (List.length vec)))); VList vec]).
Proof.
  intros Hs Ha Hu Hex. unfold glue_term. destruct mname_ok as [M1 M2].
  rewrite exec_seq, exec_seq, (exec_assign_ok _ _ _ (VList [red; alph])); [| | reflexivity].
  2: { rewrite (eval_call3 _ _ _ _ _ (VStr s) a u); [exact ra_spec | var Hs | var Ha | var Hu | reflexivity | exact a_ok | exact u_ok]. }
  rewrite exec_seq, (exec_assign_ok _ _ _ red); [| apply (eval_index_list _ _ _ [red; alph] 0); [var eq_refl | reflexivity | reflexivity] | exact red_ok].
  rewrite (exec_assign_ok _ _ _ alph); [| apply (eval_index_list _ _ _ [red; alph] 1); [var eq_refl | reflexivity | reflexivity] | exact alph_ok].
  rewrite exec_seq, (exec_assign_ok _ _ _ (VList vec)); [| | reflexivity].
  2: { rewrite (eval_call_all mname _ _ (red :: alph :: map snd extra)).
       - unfold m_prim. rewrite M1, M2, String.eqb_refl. exact meas_spec.
       - constructor; [split; [var eq_refl | exact red_ok]|]. constructor; [split; [var eq_refl | exact alph_ok]|].
         apply eval_vars_all. eapply Forall_impl; [| exact (Forall_and Hex extra_ok)]. intros [x v] [[[F1 [F2 F3]] Hx] Hb]. cbn [fst snd] in *.
         split; [|exact Hb]. rewrite !lookup_set_neq by assumption. exact Hx. }
  apply exec_return_ok; [| reflexivity].
  rewrite (eval_call2 _ _ _ _ (VList vec) (VInt (Z.of_nat (List.length s)))); [| var eq_refl | | reflexivity | reflexivity].
  - unfold m_prim. cbn [String.eqb Ascii.eqb Bool.eqb run_indexed].
    rewrite (indexed_tie noprim vec (Z.of_nat (List.length s)) (Z.of_nat (List.length vec)) [("complexity_vector"%string, VList vec); ("seq_len"%string, VInt (Z.of_nat (List.length s)))] eq_refl eq_refl eq_refl vec_len vec_ok). reflexivity.
  - cbn [MiniPy.eval]. lk. rewrite Hs. reflexivity.
Qed.
End Measures.

(* the three translated functions ARE this shape *)
Lemma WF_shape : g_get_WF_complexity = glue_term "CWF" [("windowSize"%string, VNone); ("stepSize"%string, VNone)]. Proof. reflexivity. Qed.
Lemma LC_shape : g_get_LC_complexity = glue_term "LC" [("windowSize"%string, VNone); ("stepSize"%string, VNone); ("wordSize"%string, VNone)]. Proof. reflexivity. Qed.
Lemma LZW_shape : g_get_LZW_complexity = glue_term "LZW" [("windowSize"%string, VNone); ("stepSize"%string, VNone)]. Proof. reflexivity. Qed.
Print Assumptions glue_tie.

(* Sequence.get_linear_*_complexity: the window guard, then the complexity object with the arguments in order *)
Section Guarded.
Variable cs : list ascii.                       (* self.seq *)
Variable oracle : string -> list value -> value.
Definition g_prim (name : string) (args : list value) : value :=
  if String.eqb name "__check_window_to_length" then
    match args with
    | [b] => match MiniPy.exec noprim 0 g_check_window [("self.seq"%string, VStr cs); ("bloblen"%string, b)] with ONorm _ => VNone | ORaise => VExc | _ => VErr end
    | _ => VErr
    end
  else oracle name args.
Definition guard_term (oname : string) (args : list string) : stmt :=
  SSeq (SAssign "$_" (ECall "__check_window_to_length" [EVar "windowSize"])) (SReturn (ECall oname (map EVar args))).

Theorem guarded_tie oname (args : list string) (w : Z) r : String.eqb oname "__check_window_to_length" = false ->
  lookup "windowSize" r = VInt w -> Forall (fun x => String.eqb x "$_" = false /\ is_bad (lookup x r) = false) args ->
  is_bad (oracle oname (map (fun x => lookup x r) args)) = false ->
  MiniPy.exec g_prim 0 (guard_term oname args) r =
    if Z.of_nat (List.length cs) <? w then ORaise else ORet (oracle oname (map (fun x => lookup x r) args)).
Proof.
  intros Hn Hw Hargs Hres. unfold guard_term. rewrite exec_seq.
  assert (Ec : MiniPy.eval g_prim (ECall "__check_window_to_length" [EVar "windowSize"]) r = if Z.of_nat (List.length cs) <? w then VExc else VNone).
  { rewrite (eval_call1 _ _ _ (VInt w)); [| rewrite eval_var; exact Hw | reflexivity].
    unfold g_prim. cbn [String.eqb Ascii.eqb Bool.eqb]. unfold g_check_window. rewrite exec_if.
    lazy beta iota zeta delta [MiniPy.eval lookup String.eqb Ascii.eqb Bool.eqb bad2 is_bad cmp_int]. destruct (Z.of_nat (List.length cs) <? w); reflexivity. }
  destruct (Z.of_nat (List.length cs) <? w).
  - cbn [MiniPy.exec]. rewrite Ec. reflexivity.
  - rewrite (exec_assign_ok _ _ _ _ Ec eq_refl). apply exec_return_ok; [| exact Hres].
    rewrite (eval_call_all oname _ (map EVar args) (map (fun x => lookup x r) args)).
    + unfold g_prim. rewrite Hn. reflexivity.
    + clear Hres. induction args as [|x xs IH]; [constructor|]. inversion Hargs as [|? ? [Hx Hb] Hr]; subst. cbn [map].
      constructor; [split; [rewrite eval_var, lookup_set_neq by exact Hx; reflexivity | exact Hb] | apply IH; exact Hr].
Qed.
End Guarded.

Lemma linear_WF_shape : g_get_linear_WF = guard_term "ComplexityObject.get_WF_complexity" ["self.seq"; "alphabetSize"; "userAlphabet"; "windowSize"; "stepSize"]%string. Proof. reflexivity. Qed.
Lemma linear_LC_shape : g_get_linear_LC = guard_term "ComplexityObject.get_LC_complexity" ["self.seq"; "alphabetSize"; "userAlphabet"; "windowSize"; "stepSize"; "wordSize"]%string. Proof. reflexivity. Qed.
Lemma linear_LZW_shape : g_get_linear_LZW = guard_term "ComplexityObject.get_LZW_complexity" ["self.seq"; "alphabetSize"; "userAlphabet"; "windowSize"; "stepSize"]%string. Proof. reflexivity. Qed.
Print Assumptions guarded_tie.

(* SequenceParameters.get_linear_complexity: case-insensitive dispatch on the complexity type *)
Section Dispatch.
Variable backend : string -> list value -> value.
Local Notation exec := (MiniPy.exec backend 0).
Local Notation eval := (MiniPy.eval backend).
Local Notation WF := (list_ascii_of_string "WF").
Local Notation LC := (list_ascii_of_string "LC").
Local Notation LZW := (list_ascii_of_string "LZW").
Variables (t : list ascii) (a u b st : value) (wz : Z).
Local Notation ws := (VInt wz).
Let T := map upper_py t.
Hypothesis ok_a : is_bad a = false.
Hypothesis ok_u : is_bad u = false.
Hypothesis ok_b : is_bad b = false.
Hypothesis ok_st : is_bad st = false.
Hypothesis ok_WF : is_bad (backend "SeqObj.get_linear_WF_complexity" [a; u; b; st]) = false.
Hypothesis ok_LZW : is_bad (backend "SeqObj.get_linear_LZW_complexity" [a; u; b; st]) = false.
Hypothesis ok_LC : is_bad (backend "SeqObj.get_linear_LC_complexity" [a; u; b; st; ws]) = false.

Definition d_env : env := [("complexityType"%string, VStr t); ("alphabetSize"%string, a); ("userAlphabet"%string, u); ("blobLen"%string, b); ("stepSize"%string, st); ("wordSize"%string, ws)].
Definition d_spine : list stmt := Eval vm_compute in spine g_fw_get_linear_complexity.

Lemma eq_test r lit : lookup "complexityType" r = VStr T -> truthy (eval (EEq (EVar "complexityType") (EConst (VStr lit))) r) = VBool (ascii_list_eqb T lit).
Proof. intros H. rewrite (eval_eq_str _ _ _ T lit); [reflexivity | var H | reflexivity]. Qed.

Lemma call4 f r : lookup "alphabetSize" r = a -> lookup "userAlphabet" r = u -> lookup "blobLen" r = b -> lookup "stepSize" r = st ->
  eval (ECall f [EVar "alphabetSize"; EVar "userAlphabet"; EVar "blobLen"; EVar "stepSize"]) r = backend f [a; u; b; st].
Proof.
  intros H1 H2 H3 H4. apply eval_call_all. repeat constructor; try (rewrite eval_var; assumption); assumption.
Qed.

Theorem dispatch_tie : exec g_fw_get_linear_complexity d_env =
  if ascii_list_eqb T WF then ORet (backend "SeqObj.get_linear_WF_complexity" [a; u; b; st])
  else if ascii_list_eqb T LZW then ORet (backend "SeqObj.get_linear_LZW_complexity" [a; u; b; st])
  else if ascii_list_eqb T LC then ORet (backend "SeqObj.get_linear_LC_complexity" [a; u; b; st; ws])
  else ORaise.
Proof.
  rewrite exec_spine. change (spine g_fw_get_linear_complexity) with d_spine. unfold d_spine.
  rewrite exec_list_cons, (exec_assign_ok _ _ _ (VList [VStr WF; VStr LC; VStr LZW])) by reflexivity.
  rewrite exec_list_cons, exec_if_true by reflexivity.
  rewrite (exec_assign_ok _ _ _ (VStr T)) by reflexivity.
  set (r2 := set "complexityType" (VStr T) _).
  assert (L : lookup "complexityType" r2 = VStr T) by reflexivity.
  assert (Hskip : exec (SIf (ENot (EEq (EVar "wordSize") (EConst (VInt 3)))) SSkip SSkip) r2 = ONorm r2)
    by (apply (exec_if_skip _ _ (negb (wz =? 3))); reflexivity).
  assert (Tin : truthy (eval (ENotIn (EVar "complexityType") (EVar "allowed_types")) r2) = VBool (negb (ascii_list_eqb T WF || (ascii_list_eqb T LC || (ascii_list_eqb T LZW || false))))).
  { cbn [MiniPy.eval]. rewrite L. reflexivity. }
  rewrite exec_list_cons, exec_if, Tin.
  destruct (ascii_list_eqb T WF) eqn:EWF.
  { cbn [negb orb MiniPy.exec]. rewrite exec_list_cons, (exec_if_true _ _ _ _ (eq_trans (eq_test r2 WF L) (f_equal VBool EWF))).
    rewrite exec_seq, Hskip, (exec_return_ok _ _ _ (call4 _ r2 eq_refl eq_refl eq_refl eq_refl) ok_WF). reflexivity. }
  destruct (ascii_list_eqb T LZW) eqn:ELZW.
  { replace (negb (false || (ascii_list_eqb T LC || (true || false)))) with false by (destruct (ascii_list_eqb T LC); reflexivity).
    cbn [MiniPy.exec]. rewrite exec_list_cons, (exec_if_false _ _ _ _ (eq_trans (eq_test r2 WF L) (f_equal VBool EWF))). cbn [MiniPy.exec].
    rewrite exec_list_cons, (exec_if_true _ _ _ _ (eq_trans (eq_test r2 LZW L) (f_equal VBool ELZW))).
    rewrite exec_seq, Hskip, (exec_return_ok _ _ _ (call4 _ r2 eq_refl eq_refl eq_refl eq_refl) ok_LZW). reflexivity. }
  destruct (ascii_list_eqb T LC) eqn:ELC.
  { cbn [negb orb MiniPy.exec]. rewrite exec_list_cons, (exec_if_false _ _ _ _ (eq_trans (eq_test r2 WF L) (f_equal VBool EWF))). cbn [MiniPy.exec].
    rewrite exec_list_cons, (exec_if_false _ _ _ _ (eq_trans (eq_test r2 LZW L) (f_equal VBool ELZW))). cbn [MiniPy.exec].
    rewrite exec_list_cons, (exec_if_skip _ _ _ (eq_test r2 _ L)).
    rewrite exec_list_cons, (exec_if_true _ _ _ _ (eq_trans (eq_test r2 LC L) (f_equal VBool ELC))).
    rewrite (exec_return_ok _ _ (backend "SeqObj.get_linear_LC_complexity" [a; u; b; st; ws])); [reflexivity | | exact ok_LC].
    apply eval_call_all. repeat constructor; assumption || reflexivity. }
  cbn [negb orb MiniPy.exec]. reflexivity.
Qed.
End Dispatch.
Print Assumptions dispatch_tie.

(* non-vacuity: lower-case "lzw" is dispatched to the LZW profile with the arguments in order *)
Example dispatch_runs : MiniPy.exec (fun f args => VList (VStr (list_ascii_of_string f) :: args)) 0 g_fw_get_linear_complexity
    (d_env (list_ascii_of_string "lzw") (VInt 20) VNone (VInt 5) (VInt 1) 3)
  = ORet (VList [VStr (list_ascii_of_string "SeqObj.get_linear_LZW_complexity"); VInt 20; VNone; VInt 5; VInt 1]).
Proof. vm_compute. reflexivity. Qed.
Example indexed_runs : MiniPy.exec (ix_prim noprim) 0 g_indexed (ix_env [VInt 7; VInt 8; VInt 9] 11)
  = ORet (VList [VList [VInt 3; VInt 6; VInt 9]; VList [VInt 7; VInt 8; VInt 9]]).
Proof. vm_compute. reflexivity. Qed.
