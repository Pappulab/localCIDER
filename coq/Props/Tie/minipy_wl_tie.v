(* Tie (C18) — SEMANTIC: WangLandauMachine.indexInsideRelevantRegion, __run_flatcheck and the body of the
   `while f > self.convergence` loop of run_normal_WL, translated from the working tree on every run into Core.MiniPy
   terms (prints, log-file writes and the guarded verification hook are dropped; wall-clock reads are None).
   f is represented by its exponent k (f = exp(2^-k)): np.log(f) is the dyadic 2^-k and f ** 0.5 is k + 1 — the same
   abstraction as Model/WL.v.  The moves, kappa, the nearest-centre search np.argmin(abs(bincts - k)), np.exp and the
   two uniform draws are ORACLES.  For EVERY state and every oracle outcome one iteration of the translated loop body
   leaves exactly the state Model.WL.wl_step computes.  The last section ties the bin geometry of __init__ (binWidth,
   round(1 / binWidth), the arg-min of the centre distances) to Model.WL.geom_of. *)
From Coq Require Import List String Ascii Qabs Lia.
From LC Require Import Core.Residue Core.Lists Core.QTools Core.MiniPy Core.MiniPyData Core.MiniPyExec Model.WL Proofs.WL Gen.GMiniPy.
Import ListNotations.
Local Open Scope Z_scope.

Theorem inside_tie prim (c : wlcfg) (i : nat) r :
  lookup "idx" r = VN i -> lookup "self.relevant_max" r = VN (rmax c) -> lookup "self.relevant_min" r = VN (rmin c) ->
  MiniPy.exec prim 0 g_wl_inside r = ORet (VBool (in_range c i)).
Proof.
  intros Hi Hmax Hmin. unfold g_wl_inside.
  assert (E : MiniPy.eval prim (EAnd (ELe (EVar "idx") (EVar "self.relevant_max")) (EGe (EVar "idx") (EVar "self.relevant_min"))) r =
              VBool (in_range c i)).
  { rewrite (eval_and_bool _ _ _ (Z.of_nat i <=? Z.of_nat (rmax c)) (Z.of_nat i >=? Z.of_nat (rmin c))).
    - unfold in_range. now rewrite Z.geb_leb, !leb_nat, andb_comm.
    - apply eval_le_int; rewrite eval_var; assumption.
    - apply eval_ge_int; rewrite eval_var; assumption. }
  rewrite (exec_if_bool _ _ _ _ _ E). destruct (in_range c i); reflexivity.
Qed.
Print Assumptions inside_tie.

(* numpy / float primitives of the tie: the mean of an integer array as an exact rational; f ** 0.5 on the exponent
   representation of f (k stands for exp(2^-k)); x ** 2 on integers (the sequence-log period) *)
Definition wl_num (name : string) (args : list value) : option value :=
  if String.eqb name "np.mean" then
    Some match args with
         | [VList l] => match ints_of l with
                        | Some [] => VExc
                        | Some zs => VQ (Qred (inject_Z (sumZ zs) / inject_Z (Z.of_nat (List.length zs))))
                        | None => VErr
                        end
         | _ => VErr
         end
  else if String.eqb name "pow" then
    Some match args with
         | [VInt k; VQ q] => if Qeq_bool q (1 # 2) then VInt (k + 1) else VErr
         | [VInt a; VInt 2] => VInt (a * a)
         | _ => VErr
         end
  else if String.eqb name "np.log" then
    Some match args with [VInt k] => VQ (lnf (Z.to_nat k)) | _ => VErr end
  else if String.eqb name "min" then
    Some match args with
         | [VList [VInt 1; VQ e]] => if Qle_bool 1 e then VInt 1 else VQ e
         | _ => VErr
         end
  (* Sequence objects as the triple (seq, chargePattern, dmax) the translated constructor stores (init_core_tie in
     minipy_moves_tie.v: with a non-empty pattern handed over, Sequence(s, d, p) stores exactly s, p, d) *)
  else if String.eqb name "Sequence" then
    Some match args with [VStr sq; d; VList (x :: p)] => VList [VStr sq; VList (x :: p); d] | _ => VErr end
  else if String.eqb name ".seq" then Some match args with [VList [sq; _; _]] => sq | _ => VErr end
  else if String.eqb name ".chargePattern" then Some match args with [VList [_; p; _]] => p | _ => VErr end
  else if String.eqb name ".dmax" then Some match args with [VList [_; _; d]] => d | _ => VErr end
  else if String.eqb name ".len" then Some match args with [VList [VStr sq; _; _]] => VInt (Z.of_nat (List.length sq)) | _ => VErr end
  else None.

Section Flat.
Variable rest : string -> list value -> value.
Definition fc_prim (name : string) (args : list value) : value :=
  match wl_num name args with Some v => v | None => rest name args end.
Local Notation exec := (MiniPy.exec fc_prim 0).
Local Notation eval := (MiniPy.eval fc_prim).

Lemma fc_mean hl : hl <> [] ->
  fc_prim "np.mean" [VList (map VInt hl)] = VQ (Qred (inject_Z (sumZ hl) / inject_Z (Z.of_nat (List.length hl)))).
Proof.
  intros H. change (fc_prim "np.mean" [VList (map VInt hl)])
    with (match ints_of (map VInt hl) with
          | Some [] => VExc
          | Some zs => VQ (Qred (inject_Z (sumZ zs) / inject_Z (Z.of_nat (List.length zs))))
          | None => VErr
          end).
  rewrite ints_of_map. destruct hl; [congruence | reflexivity].
Qed.

(* one flat check on ANY relevant histogram with at least one count, ANY criterion, exponent and iteration number:
   the flatness number is the number of bins with count / mean >= criterion; when it equals the number of relevant bins
   the histogram is reset to zeros, f becomes sqrt f (k + 1), the iteration number grows by one; otherwise nothing
   changes; the step counter is reset to 0 either way *)
Theorem flatcheck_tie (hl : list Z) (crit conv : Q) (nt na k ni : nat) (Hv : value) r :
  lookup "Hlocal" r = VList (map VInt hl) -> lookup "self.flatcrit" r = VQ crit -> lookup "self.nbins_target" r = VN nt ->
  lookup "self.nbins_actual" r = VN na -> lookup "f" r = VN k -> lookup "niter" r = VN ni -> lookup "H" r = Hv ->
  lookup "self.convergence" r = VQ conv -> is_bad Hv = false ->
  hl <> [] -> sumZ hl <> 0 ->
  let mean := Qred (inject_Z (sumZ hl) / inject_Z (Z.of_nat (List.length hl))) in
  let fnum := List.length (filter (fun z => Qle_bool crit (Qred (inject_Z z / mean))) hl) in
  exec g_wl_flatcheck r =
  ORet (if Nat.eqb fnum nt then VList [VList (map VInt (zeros na)); VN (S k); VN (S ni); VInt 0]
        else VList [Hv; VN k; VN ni; VInt 0]).
Proof.
  intros HHl Hcrit Hnt Hna Hf Hni HH Hconv HHv Hne Htot mean fnum.
  assert (Hmean : Qeq_bool mean 0 = false).
  { apply Qeq_bool_false. intros E. unfold mean in E. rewrite Qred_correct in E.
    apply Htot. destruct hl as [|z0 hl0]; [congruence|].
    unfold Qeq, Qdiv in E. cbn [Qinv Qmult inject_Z Qnum Qden List.length Z.of_nat] in E. lia. }
  unfold g_wl_flatcheck. rewrite exec_spine. cbn [spine]. change r with (sets [] r) at 1.
  rewrite (assign_sets "flatness_number" _ _ _ _ (VN fnum)); [| | reflexivity].
  2:{ apply (eval_len_enumfilter _ _ _ _ VInt (fun z => Qle_bool crit (Qred (inject_Z z / mean))) hl _ (VList (map VInt hl)));
        [reflexivity | rewrite var_sets; exact HHl | reflexivity |].
      intros z j. rewrite (eval_ge_Q _ _ _ (Qred (inject_Z z / mean)) crit); [reflexivity | | var Hcrit].
      apply (eval_div_Q _ _ _ (VInt z) (inject_Z z) mean); [rewrite eval_var; lk; reflexivity | reflexivity | | exact Hmean].
      rewrite (eval_call1 _ _ _ (VList (map VInt hl))); [apply fc_mean, Hne | var HHl | reflexivity]. }
  assert (E2 : truthy (MiniPy.eval fc_prim (EEq (EVar "flatness_number") (EVar "self.nbins_target")) (sets [("flatness_number"%string, VN fnum)] r)) = VBool (Nat.eqb fnum nt)).
  { rewrite (eval_eq_int _ _ _ (Z.of_nat fnum) (Z.of_nat nt)); [now rewrite eqb_nat | rewrite var_sets; reflexivity | rewrite var_sets; exact Hnt]. }
  rewrite (step_if_list _ _ _ _ _ _ E2). destruct (Nat.eqb fnum nt).
  - rewrite exec_list_spine. cbn [spine app].
    rewrite (assign_sets "f" _ _ _ _ (VN (S k))); [| | reflexivity].
    2:{ rewrite (eval_call2 _ _ _ _ (VN k) (VQ (1 # 2))); [| rewrite var_sets; exact Hf | reflexivity | reflexivity | reflexivity].
        rewrite Nat2Z.inj_succ. reflexivity. }
    rewrite (assign_sets "H" _ _ _ _ (VList (map VInt (zeros na)))); [| | reflexivity].
    2:{ unfold zeros. rewrite map_repeat. apply eval_mul_rep1; [reflexivity | rewrite var_sets; exact Hna]. }
    rewrite (assign_sets "niter" _ _ _ _ (VN (S ni))); [| | reflexivity].
    2:{ rewrite (eval_add_int _ _ _ (Z.of_nat ni) 1); [f_equal; lia | rewrite var_sets; exact Hni | reflexivity]. }
    erewrite step_norm_list.
    2:{ apply (exec_if_skip _ _ (Qltb conv (inject_Z (Z.of_nat (S k))))).
        rewrite (eval_gt_int_Q _ _ _ (Z.of_nat (S k)) conv); [reflexivity | rewrite var_sets; reflexivity | rewrite var_sets; exact Hconv]. }
    rewrite (step_return_list _ _ _ (VList [VList (map VInt (zeros na)); VN (S k); VN (S ni); VInt 0])); [reflexivity | | reflexivity].
    apply eval_listlit_all. repeat constructor; rewrite var_sets; reflexivity.
  - rewrite step_skip_list.
    rewrite (step_return_list _ _ _ (VList [Hv; VN k; VN ni; VInt 0])); [reflexivity | | reflexivity].
    apply eval_listlit_all. repeat constructor; try assumption; rewrite var_sets; assumption.
Qed.
End Flat.
Print Assumptions flatcheck_tie.

(* count / mean >= criterion, as the model states it *)
Lemma flat_pred_equiv (crit : Q) (z tot : Z) (n : nat) : 0 < tot -> (0 < n)%nat ->
  Qle_bool crit (Qred (inject_Z z / Qred (inject_Z tot / inject_Z (Z.of_nat n)))) =
  Qle_bool (crit * inject_Z tot) (inject_Z z * inject_Z (Z.of_nat n)).
Proof.
  intros Ht Hn.
  assert (HT : (0 < inject_Z tot)%Q) by (unfold Qlt; cbn [inject_Z Qnum Qden]; lia).
  assert (HN : (0 < inject_Z (Z.of_nat n))%Q) by (unfold Qlt; cbn [inject_Z Qnum Qden]; lia).
  assert (E : (Qred (inject_Z z / Qred (inject_Z tot / inject_Z (Z.of_nat n))) == inject_Z z * inject_Z (Z.of_nat n) / inject_Z tot)%Q).
  { rewrite !Qred_correct. field. split; intros E0; [rewrite E0 in HT; apply (Qlt_irrefl 0 HT) | rewrite E0 in HN; apply (Qlt_irrefl 0 HN)]. }
  apply Bool.eq_iff_eq_true. rewrite !Qle_bool_iff. rewrite E. split; intros H.
  - apply (Qmult_lt_0_le_reg_r _ _ (/ inject_Z tot)); [apply Qinv_lt_0_compat; exact HT|].
    setoid_replace (crit * inject_Z tot * / inject_Z tot)%Q with crit by (field; intros E0; rewrite E0 in HT; apply (Qlt_irrefl 0 HT)).
    exact H.
  - apply Qle_shift_div_l; assumption.
Qed.

Lemma list_set_upd {A} (f : A -> value) (g : A -> A) (d : A) (l : list A) i : (i < List.length l)%nat ->
  list_set (map f l) (Z.of_nat i) (f (g (nth i l d))) = Some (map f (upd l i g)).
Proof.
  intros H. rewrite list_set_nat by now rewrite map_length.
  unfold set_nth. rewrite (upd_split g d l i H), map_app, firstn_map. cbn [map]. now rewrite skipn_map.
Qed.

(* H[relevant_min : relevant_max + 1] is the model's relevant window *)
Lemma hlocal_slice (c : wlcfg) (h : list Z) : (1 <= nb_target c)%nat -> (rmin c + nb_target c <= List.length h)%nat ->
  (match slice_bounds (List.length (map VInt h)) (VN (rmin c)) (VInt (Z.of_nat (rmax c) + 1)) with
   | Some (i, j) => VList (firstn (j - i) (skipn i (map VInt h)))
   | None => VErr
   end) = VList (map VInt (hlocal c h)).
Proof.
  intros Hnt Hlen. unfold rmax. rewrite slice_bounds_Z by (rewrite map_length; lia). rewrite Nat2Z.id.
  replace (Z.to_nat (Z.of_nat (rmin c + nb_target c - 1) + 1) - rmin c)%nat with (nb_target c) by lia.
  unfold hlocal. now rewrite skipn_map, firstn_map.
Qed.

Section Tail.
Variable c : wlcfg.
Variable conv : Q.
Variable rest : string -> list value -> value.

Definition fc_env (H Hl ni f g : value) : env :=
  [("H"%string, H); ("Hlocal"%string, Hl); ("niter"%string, ni); ("f"%string, f); ("g"%string, g);
   ("self.flatcrit"%string, VQ (crit c)); ("self.nbins_target"%string, VN (nb_target c));
   ("self.nbins_actual"%string, VN (nb_actual c)); ("self.convergence"%string, VQ conv)].

(* self.__run_flatcheck(...) is interpreted by RUNNING the translated __run_flatcheck on the arguments *)
Definition wl_prim (name : string) (args : list value) : value :=
  if String.eqb name "__run_flatcheck" then
    match args with
    | [H; Hl; ni; f; _; _; g] =>
        match MiniPy.exec (fc_prim rest) 0 g_wl_flatcheck (fc_env H Hl ni f g) with ORet v => v | ORaise => VExc | _ => VErr end
    | _ => VErr
    end
  else if String.eqb name "indexInsideRelevantRegion" then
    match args with
    | [i] => match MiniPy.exec (fc_prim rest) 0 g_wl_inside [("idx"%string, i); ("self.relevant_max"%string, VN (rmax c)); ("self.relevant_min"%string, VN (rmin c))] with
             | ORet v => v | ORaise => VExc | _ => VErr end
    | _ => VErr
    end
  else fc_prim rest name args.
Local Notation exec := (MiniPy.exec wl_prim 0).
Local Notation eval := (MiniPy.eval wl_prim).

(* the loop body as the list of its fifteen top-level statements; the last three, in the source's words:
     st_upd   if not skip: g[idx_old] = g[idx_old] + np.log(f); H[idx_old] = H[idx_old] + 1
     st_cnt   nstep = nstep + 1
     st_chk   if nstep % self.nflatchk == 0: reject = 0; Hlocal = H[relevant_min : relevant_max + 1]; flatcount += 1;
              (H, f, niter, nstep) = self.__run_flatcheck(H, Hlocal, niter, f, hlog, glog, g); endTime, startTime = t.time()
   (st_chk_body is the list of the statements under that `if`).  hlog and glog are the log-file handles: the loop only hands
   them on to __run_flatcheck, which only writes to them; the translator drops their creation, so they hold None. *)
Definition st_spine : list stmt := Eval vm_compute in spine g_wl_step.
Definition st_upd : stmt := Eval vm_compute in nth 12 st_spine SSkip.
Definition st_cnt : stmt := Eval vm_compute in nth 13 st_spine SSkip.
Definition st_chk : stmt := Eval vm_compute in nth 14 st_spine SSkip.
Definition st_chk_body : list stmt := Eval vm_compute in match st_chk with SIf _ a _ => spine a | _ => [] end.
Lemma st_tail_eq : skipn 12 st_spine = [st_upd; st_cnt; st_chk]. Proof. reflexivity. Qed.

Lemma wl_prim_other name args : String.eqb name "__run_flatcheck" = false -> String.eqb name "indexInsideRelevantRegion" = false ->
  wl_prim name args = fc_prim rest name args.
Proof. intros H1 H2. unfold wl_prim. now rewrite H1, H2. Qed.

Lemma st_chk_run r b : truthy (eval (EEq (EMod (EVar "nstep") (EVar "self.nflatchk")) (EConst (VInt 0))) r) = VBool b ->
  exec st_chk r = if b then MiniPy.exec_list wl_prim 0 st_chk_body r else ONorm r.
Proof.
  intros H. unfold st_chk. destruct b; [rewrite (exec_if_true _ _ _ _ H); apply exec_spine | rewrite (exec_if_false _ _ _ _ H); reflexivity].
Qed.

Definition model_fnum (h : list Z) : nat :=
  List.length (filter (fun x => Qle_bool (crit c * inject_Z (sumZ (hlocal c h))) (inject_Z x * inject_Z (Z.of_nat (nb_target c)))) (hlocal c h)).

Lemma flatcheck_window (h : list Z) (gval : value) (k ni : nat) :
  (1 <= nb_target c)%nat -> (rmin c + nb_target c <= List.length h)%nat -> (forall x, In x h -> 0 <= x) -> sumZ (hlocal c h) <> 0 ->
  MiniPy.exec (fc_prim rest) 0 g_wl_flatcheck (fc_env (VList (map VInt h)) (VList (map VInt (hlocal c h))) (VN ni) (VN k) gval) =
  ORet (if is_flat c h then VList [VList (map VInt (zeros (nb_actual c))); VN (S k); VN (S ni); VInt 0]
        else VList [VList (map VInt h); VN k; VN ni; VInt 0]).
Proof.
  intros Hnt Hlen Hpos Htot.
  assert (Hne : hlocal c h <> []).
  { intros E. apply (f_equal (@List.length _)) in E. rewrite hlocal_length in E by exact Hlen. cbn in E. lia. }
  rewrite (flatcheck_tie rest (hlocal c h) (crit c) conv (nb_target c) (nb_actual c) k ni (VList (map VInt h)))
    by (try reflexivity; assumption).
  cbv zeta. rewrite hlocal_length by exact Hlen.
  unfold is_flat, flatness_number. rewrite (proj2 (Z.eqb_neq _ 0) Htot).
  erewrite filter_ext; [reflexivity|].
  assert (0 <= sumZ (hlocal c h)) by (apply sumZ_nonneg; intros x Hx; apply Hpos, (hlocal_incl c h x Hx)).
  intros z. apply flat_pred_equiv; lia.
Qed.

Lemma upd_run (gv0 : list Q) (hv0 : list Z) (k io : nat) (sk : bool) r :
  lookup "skip" r = VBool sk -> lookup "idx_old" r = VN io -> lookup "g" r = VList (map VQ gv0) -> lookup "H" r = VList (map VInt hv0) ->
  lookup "f" r = VN k -> (io < List.length gv0)%nat -> (io < List.length hv0)%nat ->
  exists r', exec st_upd r = ONorm r' /\
    lookup "g" r' = VList (map VQ (if sk then gv0 else upd gv0 io (fun x => Qred (x + lnf k)%Q))) /\
    lookup "H" r' = VList (map VInt (if sk then hv0 else upd hv0 io (fun x => x + 1))) /\
    same_except ["g"; "H"]%string r r'.
Proof.
  intros Hsk Hio Hg HH Hf Hlg Hlh. unfold st_upd.
  rewrite (exec_if_bool _ _ _ _ (negb sk)) by (apply eval_not; rewrite eval_var; exact Hsk). destruct sk; cbn [negb].
  - exists r. split; [reflexivity|]. split; [exact Hg|]. split; [exact HH | apply same_except_refl].
  - rewrite exec_seq.
    rewrite (exec_setitem_list "g" _ _ r (map VQ gv0) (Z.of_nat io) (VQ (Qred (nth io gv0 0%Q + lnf k))) (map VQ (upd gv0 io (fun x => Qred (x + lnf k)%Q))) Hg).
    2:{ rewrite eval_var. exact Hio. }
    2:{ apply eval_add_Q.
        - apply (eval_index_list _ _ _ (map VQ gv0) (Z.of_nat io)); [rewrite eval_var; exact Hg | rewrite eval_var; exact Hio | apply index_val_map, Hlg].
        - rewrite (eval_call1 _ _ _ (VN k)), wl_prim_other; [| reflexivity | reflexivity | rewrite eval_var; exact Hf | reflexivity].
          exact (f_equal (fun n => VQ (lnf n)) (Nat2Z.id k)). }
    2:{ reflexivity. }
    2:{ apply (list_set_upd VQ (fun x => Qred (x + lnf k)%Q) 0%Q gv0 io Hlg). }
    set (r1 := set "g" _ r).
    assert (HH1 : lookup "H" r1 = VList (map VInt hv0)) by (unfold r1; lk; exact HH).
    assert (Hio1 : lookup "idx_old" r1 = VN io) by (unfold r1; lk; exact Hio).
    rewrite (exec_setitem_list "H" _ _ r1 (map VInt hv0) (Z.of_nat io) (VInt (nth io hv0 0 + 1)) (map VInt (upd hv0 io (fun x => x + 1))) HH1).
    2:{ rewrite eval_var. exact Hio1. }
    2:{ apply eval_add_int; [|reflexivity].
        apply (eval_index_list _ _ _ (map VInt hv0) (Z.of_nat io)); [rewrite eval_var; exact HH1 | rewrite eval_var; exact Hio1 | apply index_val_map, Hlh]. }
    2:{ reflexivity. }
    2:{ apply (list_set_upd VInt (fun x => x + 1) 0 hv0 io Hlh). }
    eexists. split; [reflexivity|]. unfold r1. lk. split; [reflexivity|]. split; [reflexivity|].
    apply same_except_step; [cbn; tauto|]. apply same_except_set. cbn. tauto.
Qed.

Lemma chk_run (g' : list Q) (h' : list Z) (k ns ni : nat) (fc : Z) r :
  lookup "g" r = VList (map VQ g') -> lookup "H" r = VList (map VInt h') -> lookup "f" r = VN k ->
  lookup "nstep" r = VN ns -> lookup "niter" r = VN ni -> lookup "flatcount" r = VInt fc ->
  lookup "hlog" r = VNone -> lookup "glog" r = VNone ->
  lookup "self.nflatchk" r = VN (nflat c) -> lookup "self.relevant_min" r = VN (rmin c) -> lookup "self.relevant_max" r = VN (rmax c) ->
  (0 < nflat c)%nat -> (1 <= nb_target c)%nat -> (rmin c + nb_target c <= List.length h')%nat -> (forall x, In x h' -> 0 <= x) ->
  ((S ns mod nflat c =? 0)%nat = true -> sumZ (hlocal c h') <> 0) ->
  let due := (S ns mod nflat c =? 0)%nat in
  let flat := due && is_flat c h' in
  exists r', MiniPy.exec_list wl_prim 0 [st_cnt; st_chk] r = ONorm r' /\
    lookup "g" r' = VList (map VQ g') /\
    lookup "H" r' = VList (map VInt (if flat then zeros (nb_actual c) else h')) /\
    lookup "f" r' = VN (if flat then S k else k) /\
    lookup "nstep" r' = VN (if due then 0 else S ns) /\
    lookup "niter" r' = VN (if flat then S ni else ni) /\
    lookup "idx_old" r' = lookup "idx_old" r /\ lookup "oseq" r' = lookup "oseq" r.
Proof.
  intros Hg HH Hf Hns Hni Hfc Hhl Hgl Hnf Hmin Hmax Hnfp Hnt Hlen Hpos Htot due flat.
  change r with (sets [] r) at 1. unfold st_cnt.
  rewrite (assign_sets "nstep" _ _ _ _ (VN (S ns))); [| | reflexivity].
  2:{ rewrite (eval_add_int _ _ _ (Z.of_nat ns) 1); [f_equal; lia | rewrite var_sets; exact Hns | reflexivity]. }
  assert (Ed : truthy (eval (EEq (EMod (EVar "nstep") (EVar "self.nflatchk")) (EConst (VInt 0))) (sets [("nstep"%string, VN (S ns))] r)) = VBool due).
  { rewrite (eval_eq_int _ _ _ (Z.of_nat (S ns) mod Z.of_nat (nflat c)) 0); [unfold due; now rewrite mod_test | | reflexivity].
    apply eval_mod_int; [rewrite var_sets; reflexivity | rewrite var_sets; exact Hnf | lia]. }
  rewrite exec_list_cons, (st_chk_run _ _ Ed). unfold flat. destruct due eqn:Edue; cbn [andb].
  2:{ eexists. split; [reflexivity|]. repeat split; rewrite lookup_sets; reflexivity || assumption. }
  unfold st_chk_body.
  rewrite (assign_sets "reject" _ _ _ _ (VInt 0)) by reflexivity.
  rewrite (assign_sets "Hlocal" _ _ _ _ (VList (map VInt (hlocal c h')))); [| | reflexivity].
  2:{ rewrite (eval_slice_list _ _ _ _ (map VInt h') (Z.of_nat (rmin c)) (Z.of_nat (rmax c) + 1)).
      - apply hlocal_slice; assumption.
      - rewrite var_sets. exact HH.
      - rewrite var_sets. exact Hmin.
      - apply eval_add_int; [rewrite var_sets; exact Hmax | reflexivity]. }
  rewrite (assign_sets "flatcount" _ _ _ _ (VInt (fc + 1))); [| apply eval_add_int; [rewrite var_sets; exact Hfc | reflexivity] | reflexivity].
  (* the tuple assignment: the call's result in $1, then its four components *)
  rewrite exec_list_spine. cbn [spine app].
  set (ret := [VList (map VInt (if is_flat c h' then zeros (nb_actual c) else h')); VN (if is_flat c h' then S k else k);
               VN (if is_flat c h' then S ni else ni); VInt 0]).
  rewrite (assign_sets "$1" _ _ _ _ (VList ret)); [| | reflexivity].
  2:{ rewrite (eval_call_all _ _ _ [VList (map VInt h'); VList (map VInt (hlocal c h')); VN ni; VN k; VNone; VNone; VList (map VQ g')])
        by (repeat constructor; rewrite var_sets; assumption || reflexivity).
      change (wl_prim "__run_flatcheck" ?a) with
        (ret_value (MiniPy.exec (fc_prim rest) 0 g_wl_flatcheck (fc_env (VList (map VInt h')) (VList (map VInt (hlocal c h'))) (VN ni) (VN k) (VList (map VQ g'))))).
      rewrite (flatcheck_window h' (VList (map VQ g')) k ni Hnt Hlen Hpos (Htot Edue)). unfold ret. destruct (is_flat c h'); reflexivity. }
  assert (Ix : forall l i v, lookup "$1" (l ++ r) = VList ret -> index_val ret i = Some v ->
                             eval (EIndex (EVar "$1") (EConst (VInt i))) (sets l r) = v).
  { intros l i v Hl Hi. apply (eval_index_list _ _ _ ret i); [rewrite var_sets; exact Hl | reflexivity | exact Hi]. }
  rewrite (assign_sets "H" _ _ _ _ (VList (map VInt (if is_flat c h' then zeros (nb_actual c) else h')))); [| apply (Ix _ 0); reflexivity | reflexivity].
  rewrite (assign_sets "f" _ _ _ _ (VN (if is_flat c h' then S k else k))); [| apply (Ix _ 1); reflexivity | reflexivity].
  rewrite (assign_sets "niter" _ _ _ _ (VN (if is_flat c h' then S ni else ni))); [| apply (Ix _ 2); reflexivity | reflexivity].
  rewrite (assign_sets "nstep" _ _ _ _ (VN 0)); [| apply (Ix _ 3); reflexivity | reflexivity].
  rewrite (assign_sets "endTime" _ _ _ _ VNone) by reflexivity.
  rewrite (assign_sets "startTime" _ _ _ _ VNone) by reflexivity.
  eexists. split; [reflexivity|]. repeat split; rewrite lookup_sets; reflexivity || assumption.
Qed.

(* THE UPDATE RULE, as the translated code performs it: the last three statements of one iteration of the loop, started
   in ANY state (after the acceptance decision has fixed the current sequence and its bin), leave exactly the state
   Model.WL.wl_step computes: g grows by ln f and H by one at the current bin unless the proposal fell outside the
   relevant range; the step counter grows by one; at a scheduled check with a flat relevant histogram H is zeroed, f
   becomes sqrt f and the iteration number grows, and the step counter restarts at 0 at every scheduled check.
   The model's step first moves to the proposal when the event accepts and then does this update; the loop does the move in
   st_accept, before these statements.  Hence the event e0 below: one that does not accept, so that its proposal, bin,
   probability and draw play no part (they are [] and 0), taken from the state in which the move is already made. *)
Theorem tail_tie (s : wlst) (sk : bool) (fc : Z) r :
  lookup "skip" r = VBool sk -> lookup "idx_old" r = VN (idx_old s) ->
  lookup "g" r = VList (map VQ (gv s)) -> lookup "H" r = VList (map VInt (hv s)) -> lookup "f" r = VN (kexp s) ->
  lookup "nstep" r = VN (nstep s) -> lookup "niter" r = VN (niter s) -> lookup "flatcount" r = VInt fc ->
  lookup "hlog" r = VNone -> lookup "glog" r = VNone ->
  lookup "self.nflatchk" r = VN (nflat c) -> lookup "self.relevant_min" r = VN (rmin c) -> lookup "self.relevant_max" r = VN (rmax c) ->
  (idx_old s < List.length (gv s))%nat -> (idx_old s < List.length (hv s))%nat ->
  (0 < nflat c)%nat -> (1 <= nb_target c)%nat -> (rmin c + nb_target c <= List.length (hv s))%nat -> (forall x, In x (hv s) -> 0 <= x) ->
  let e0 := {| e_prop := []; e_idx := 0; e_skip := sk; e_ap := 0; e_u := 0; e_acc := false |} in
  let s' := wl_step c s e0 in
  ((S (nstep s) mod nflat c =? 0)%nat = true ->
     sumZ (hlocal c (if sk then hv s else upd (hv s) (idx_old s) (fun x => x + 1))) <> 0) ->
  exists r', MiniPy.exec_list wl_prim 0 (skipn 12 st_spine) r = ONorm r' /\
    lookup "g" r' = VList (map VQ (gv s')) /\ lookup "H" r' = VList (map VInt (hv s')) /\ lookup "f" r' = VN (kexp s') /\
    lookup "nstep" r' = VN (nstep s') /\ lookup "niter" r' = VN (niter s') /\ lookup "idx_old" r' = VN (idx_old s') /\
    lookup "oseq" r' = lookup "oseq" r.
Proof.
  intros Hsk Hio Hg HH Hf Hns Hni Hfc Hhl Hgl Hnf Hmin Hmax Hlg Hlh Hnfp Hnt Hlen Hpos e0 s' Htot.
  rewrite st_tail_eq.
  destruct (upd_run (gv s) (hv s) (kexp s) (idx_old s) sk r Hsk Hio Hg HH Hf Hlg Hlh) as [r1 [E1 [Hg1 [HH1 Hfr]]]].
  rewrite (step_norm_list _ _ _ _ E1).
  set (g' := if sk then gv s else upd (gv s) (idx_old s) (fun x => Qred (x + lnf (kexp s))%Q)) in *.
  set (h' := if sk then hv s else upd (hv s) (idx_old s) (fun x => x + 1)) in *.
  assert (Hlen' : (rmin c + nb_target c <= List.length h')%nat) by (unfold h'; destruct sk; [exact Hlen | rewrite upd_length; exact Hlen]).
  assert (Hpos' : forall x, In x h' -> 0 <= x) by (unfold h'; destruct sk; [exact Hpos | apply upd_nonneg, Hpos]).
  (* what upd_run left alone is as it was *)
  rewrite <- Hfr in Hf, Hns, Hni, Hfc, Hhl, Hgl, Hnf, Hmin, Hmax by reflexivity.
  destruct (chk_run g' h' (kexp s) (nstep s) (niter s) fc r1 Hg1 HH1 Hf Hns Hni Hfc Hhl Hgl Hnf Hmin Hmax Hnfp Hnt Hlen' Hpos' Htot)
    as [r2 [E2 [Hg2 [HH2 [Hf2 [Hn2 [Hi2 [Hio2 Hos2]]]]]]]].
  exists r2. split; [exact E2|].
  rewrite Hg2, HH2, Hf2, Hn2, Hi2, Hio2, Hos2, !Hfr by reflexivity. rewrite Hio.
  unfold s', wl_step, e0. cbn [e_acc e_skip e_idx e_prop]. fold g' h'.
  destruct (S (nstep s) mod nflat c =? 0)%nat; cbn [andb]; [destruct (is_flat c h')|]; cbn [gv hv kexp nstep niter idx_old];
    repeat split; reflexivity.
Qed.
End Tail.
Print Assumptions tail_tie.

Section Step.
Variable c : wlcfg.
Variable conv : Q.
Variable rest : string -> list value -> value.    (* the oracles: moves, kappa, nearest centre, np.exp, uniform draws *)
Local Notation prim := (wl_prim c conv rest).
Local Notation exec := (MiniPy.exec prim 0).
Local Notation eval := (MiniPy.eval prim).

(* the first twelve statements of the loop body, in the source's words:
     st_dot      if nstep % self.dotdotfreq == 0: running_dotdotdot()      (the print is dropped: both branches are empty)
     1 .. 4      p_full_shuffle = 1 / (1+41.5+69.3+78.2), p_swap_charges = 41.5 / (...), p_swap_blocks = 69.3 / (...),
                 p_cluster_charges = 78.2 / (...)
     5           r = rand.random()
     st_moves    if r < p_full_shuffle: nseq = oseq.full_shuffle(self.frozen) elif r < ...: swapRandChargeRes / permute_block_swap
                 else: nseq = oseq.permute_cluster_charges(self.frozen)
     7 .. 9      knew = nseq.kappa(); idx_new = np.argmin(abs(bincts - knew)); skip = False
     st_inside   if self.indexInsideRelevantRegion(idx_new): acceptProb = min([1, np.exp(g[idx_old] - g[idx_new])])
                 else: reject = reject + 1; acceptProb = 0; skip = True
     st_accept   if rand.random() < acceptProb: (the sequence-log countdown); oseq = Sequence(nseq.seq, nseq.dmax, nseq.chargePattern);
                 kold = oseq.kappa(); idx_old = np.argmin(abs(bincts - kold)); nseq = None; idx_new = 0
                 else: nseq = None; idx_new = 0                          (st_acc_body: the statements of the first branch) *)
Definition st_head : list stmt := Eval vm_compute in firstn 12 st_spine.
Lemma st_split : st_spine = st_head ++ skipn 12 st_spine. Proof. reflexivity. Qed.
Definition st_dot : stmt := Eval vm_compute in nth 0 st_head SSkip.
Definition st_moves : stmt := Eval vm_compute in nth 6 st_head SSkip.
Definition st_inside : stmt := Eval vm_compute in nth 10 st_head SSkip.
Definition st_accept : stmt := Eval vm_compute in nth 11 st_head SSkip.
Definition st_acc_body : list stmt := Eval vm_compute in match st_accept with SIf _ a _ => spine a | _ => [] end.
(* the proposal: everything up to `skip = False` *)
Definition st_propose : list stmt := st_dot :: firstn 4 (skipn 1 st_head) ++
  [SAssign "r" (ECall "rand.random#1" []); st_moves; SAssign "knew" (ECall ".kappa" [EVar "nseq"]);
   SAssign "idx_new" (ECall "argmin_abs_diff" [EVar "bincts"; EVar "knew"]); SAssign "skip" (EConst (VBool false))].
Lemma st_head_eq : st_head = st_propose ++ [st_inside; st_accept].
Proof. reflexivity. Qed.

(* the move weights as the code computes them: 1, 41.5, 69.3, 78.2 over their sum 190 *)
Definition p1 : Q := 1 # 190.
Definition p2 : Q := 83 # 380.
Definition p3 : Q := 693 # 1900.
Definition p4 : Q := 391 # 950.
Definition mv_name (u : Q) : string :=
  if Qltb u p1 then ".full_shuffle"
  else if Qltb u (Qred (p2 + p1)) then ".swapRandChargeRes"
  else if Qltb u (Qred (Qred (p3 + p2) + p1)) then ".permute_block_swap"
  else ".permute_cluster_charges".

(* here the source's 1, 41.5, 69.3, 78.2 become p1 .. p4: each quotient w / (1+41.5+69.3+78.2) is a closed expression over the
   decimals' exact rationals, evaluated once *)
Lemma weights_run r : MiniPy.exec_list prim 0 (firstn 4 (skipn 1 st_head)) r =
  ONorm (sets [("p_cluster_charges"%string, VQ p4); ("p_swap_blocks"%string, VQ p3); ("p_swap_charges"%string, VQ p2);
               ("p_full_shuffle"%string, VQ p1)] r).
Proof.
  cbn [st_head firstn skipn]. change r with (sets [] r) at 1.
  rewrite (assign_sets "p_full_shuffle" _ _ _ _ (VQ p1)) by (vm_compute; reflexivity).
  rewrite (assign_sets "p_swap_charges" _ _ _ _ (VQ p2)) by (vm_compute; reflexivity).
  rewrite (assign_sets "p_swap_blocks" _ _ _ _ (VQ p3)) by (vm_compute; reflexivity).
  rewrite (assign_sets "p_cluster_charges" _ _ _ _ (VQ p4)) by (vm_compute; reflexivity).
  reflexivity.
Qed.

Lemma rest_call name args : wl_num name args = None -> String.eqb name "__run_flatcheck" = false ->
  String.eqb name "indexInsideRelevantRegion" = false -> prim name args = rest name args.
Proof. intros H1 H2 H3. rewrite wl_prim_other by assumption. unfold fc_prim. now rewrite H1. Qed.

Lemma moves_run (u1 : Q) (OS fz NS : value) r :
  lookup "r" r = VQ u1 -> lookup "p_full_shuffle" r = VQ p1 -> lookup "p_swap_charges" r = VQ p2 -> lookup "p_swap_blocks" r = VQ p3 ->
  lookup "oseq" r = OS -> lookup "self.frozen" r = fz -> is_bad OS = false -> is_bad fz = false -> is_bad NS = false ->
  rest (mv_name u1) [OS; fz] = NS ->
  exec st_moves r = ONorm (set "nseq" NS r).
Proof.
  intros Hr H1 H2 H3 Hos Hfz Bos Bfz Bns Hmv. unfold st_moves, mv_name in *.
  assert (A : forall nm, wl_num nm [OS; fz] = None -> String.eqb nm "__run_flatcheck" = false -> String.eqb nm "indexInsideRelevantRegion" = false ->
              rest nm [OS; fz] = NS -> exec (SAssign "nseq" (ECall nm [EVar "oseq"; EVar "self.frozen"])) r = ONorm (set "nseq" NS r)).
  { intros nm W F1 F2 E. apply exec_assign_ok; [|exact Bns].
    rewrite (eval_call2 _ _ _ _ OS fz), rest_call; [exact E | assumption | assumption | assumption | rewrite eval_var; exact Hos | rewrite eval_var; exact Hfz | exact Bos | exact Bfz]. }
  assert (S2 : eval (EAdd (EVar "p_swap_charges") (EVar "p_full_shuffle")) r = VQ (Qred (p2 + p1))) by (apply eval_add_Q; rewrite eval_var; assumption).
  assert (S3 : eval (EAdd (EAdd (EVar "p_swap_blocks") (EVar "p_swap_charges")) (EVar "p_full_shuffle")) r = VQ (Qred (Qred (p3 + p2) + p1)))
    by (apply eval_add_Q; [apply eval_add_Q|]; rewrite eval_var; assumption).
  assert (Er : eval (EVar "r") r = VQ u1) by (rewrite eval_var; exact Hr).
  rewrite (exec_if_bool _ _ _ _ (Qltb u1 p1)) by (apply (eval_lt_Q _ _ _ _ _ Er); rewrite eval_var; exact H1).
  destruct (Qltb u1 p1); [apply A; try reflexivity; exact Hmv|].
  rewrite (exec_if_bool _ _ _ _ _ (eval_lt_Q _ _ _ _ _ Er S2)).
  destruct (Qltb u1 (Qred (p2 + p1))); [apply A; try reflexivity; exact Hmv|].
  rewrite (exec_if_bool _ _ _ _ _ (eval_lt_Q _ _ _ _ _ Er S3)).
  destruct (Qltb u1 (Qred (Qred (p3 + p2) + p1))); apply A; try reflexivity; exact Hmv.
Qed.

Lemma propose_run (u1 kn : Q) (ns dq j : nat) (OS fz bv NS : value) r :
  lookup "nstep" r = VN ns -> lookup "self.dotdotfreq" r = VN dq -> (0 < dq)%nat ->
  lookup "oseq" r = OS -> lookup "self.frozen" r = fz -> lookup "bincts" r = bv ->
  is_bad OS = false -> is_bad fz = false -> is_bad bv = false -> is_bad NS = false ->
  rest "rand.random#1" [] = VQ u1 -> rest (mv_name u1) [OS; fz] = NS -> rest ".kappa" [NS] = VQ kn ->
  rest "argmin_abs_diff" [bv; VQ kn] = VN j ->
  MiniPy.exec_list prim 0 st_propose r =
  ONorm (sets [("skip"%string, VBool false); ("idx_new"%string, VN j); ("knew"%string, VQ kn); ("nseq"%string, NS); ("r"%string, VQ u1);
               ("p_cluster_charges"%string, VQ p4); ("p_swap_blocks"%string, VQ p3); ("p_swap_charges"%string, VQ p2);
               ("p_full_shuffle"%string, VQ p1)] r).
Proof.
  intros Hns Hdq Hdqp Hos Hfz Hbv BOS Bfz Bbv BNS Hu1 Hmv Hkn Hj. unfold st_propose, st_dot.
  erewrite step_norm_list.
  2:{ apply (exec_if_skip _ _ (Z.of_nat ns mod Z.of_nat dq =? 0)).
      rewrite (eval_eq_int _ _ _ (Z.of_nat ns mod Z.of_nat dq) 0); [reflexivity | | reflexivity].
      apply eval_mod_int; [rewrite eval_var; exact Hns | rewrite eval_var; exact Hdq | lia]. }
  rewrite exec_list_app, weights_run.
  rewrite (assign_sets "r" _ _ _ _ (VQ u1)); [| rewrite eval_call0, rest_call by reflexivity; exact Hu1 | reflexivity].
  rewrite exec_list_cons, (moves_run u1 OS fz NS) by (assumption || (rewrite lookup_sets; assumption || reflexivity)).
  change (set "nseq" NS (sets ?l r)) with (sets (("nseq"%string, NS) :: l) r).
  rewrite (assign_sets "knew" _ _ _ _ (VQ kn)); [| | reflexivity].
  2:{ rewrite (eval_call1 _ _ _ NS); [| rewrite var_sets; reflexivity | exact BNS]. rewrite rest_call by reflexivity. exact Hkn. }
  rewrite (assign_sets "idx_new" _ _ _ _ (VN j)); [| | reflexivity].
  2:{ rewrite (eval_call2 _ _ _ _ bv (VQ kn)); [| rewrite var_sets; exact Hbv | rewrite var_sets; reflexivity | exact Bbv | reflexivity].
      rewrite rest_call by reflexivity. exact Hj. }
  rewrite (assign_sets "skip" _ _ _ _ (VBool false)) by reflexivity.
  reflexivity.
Qed.

Lemma inside_run (gv0 : list Q) (io j : nat) (rj : Z) (ex : Q) r :
  lookup "idx_new" r = VN j -> lookup "idx_old" r = VN io -> lookup "g" r = VList (map VQ gv0) -> lookup "reject" r = VInt rj ->
  (io < List.length gv0)%nat -> (j < List.length gv0)%nat ->
  (in_range c j = true -> rest "np.exp" [VQ (Qred (nth io gv0 0%Q - nth j gv0 0%Q))] = VQ ex) ->
  exec st_inside r = ONorm (if in_range c j then set "acceptProb" (if Qle_bool 1 ex then VInt 1 else VQ ex) r
                            else set "skip" (VBool true) (set "acceptProb" (VInt 0) (set "reject" (VInt (rj + 1)) r))).
Proof.
  intros Hj Hio Hg Hrj Lio Lj Hex. unfold st_inside.
  assert (T : eval (ECall "indexInsideRelevantRegion" [EVar "idx_new"]) r = VBool (in_range c j)).
  { rewrite (eval_call1 _ _ _ (VN j)); [| rewrite eval_var; exact Hj | reflexivity].
    pose (ri := [("idx"%string, VN j); ("self.relevant_max"%string, VN (rmax c)); ("self.relevant_min"%string, VN (rmin c))]).
    change (prim "indexInsideRelevantRegion" [VN j]) with (ret_value (MiniPy.exec (fc_prim rest) 0 g_wl_inside ri)).
    now rewrite (inside_tie _ c j ri eq_refl eq_refl eq_refl). }
  rewrite (exec_if_bool _ _ _ _ _ T). destruct (in_range c j).
  - apply exec_assign_ok; [|destruct (Qle_bool 1 ex); reflexivity].
    assert (Ee : eval (ECall "np.exp" [ESub (EIndex (EVar "g") (EVar "idx_old")) (EIndex (EVar "g") (EVar "idx_new"))]) r = VQ ex).
    { rewrite (eval_call1 _ _ _ (VQ (Qred (nth io gv0 0%Q - nth j gv0 0%Q)))); [| | reflexivity].
      - rewrite rest_call by reflexivity. apply Hex. reflexivity.
      - apply eval_sub_Q.
        + apply (eval_index_list _ _ _ (map VQ gv0) (Z.of_nat io)); [rewrite eval_var; exact Hg | rewrite eval_var; exact Hio | apply index_val_map, Lio].
        + apply (eval_index_list _ _ _ (map VQ gv0) (Z.of_nat j)); [rewrite eval_var; exact Hg | rewrite eval_var; exact Hj | apply index_val_map, Lj]. }
    rewrite (eval_call1 _ _ _ (VList [VInt 1; VQ ex])); [| apply eval_listlit2; [reflexivity | exact Ee | reflexivity | reflexivity] | reflexivity].
    rewrite wl_prim_other by reflexivity. reflexivity.
  - rewrite (step_assign _ _ _ _ (VInt (rj + 1))); [| apply eval_add_int; [rewrite eval_var; exact Hrj | reflexivity] | reflexivity].
    rewrite (step_const _ (VInt 0)) by reflexivity.
    apply exec_assign_ok; reflexivity.
Qed.

(* the Metropolis test and, when it accepts, the new current object (a fresh Sequence from the proposal's fields), its
   kappa and bin.  acceptProb holds apv and compares as the rational ap: the three shapes are those inside_run leaves, the
   integer 1 (min picked its first entry), the integer 0 (outside the range), a float *)
Lemma accept_run (u2 ap kn : Q) (apv bv dv pv d' x' : value) (cs cs' : list ascii) (p' : list value) (j : nat) (sc : Z) r :
  let OS := VList [VStr cs; pv; dv] in let NS := VList [VStr cs'; VList (x' :: p'); d'] in
  is_bad d' = false -> is_bad bv = false ->
  lookup "acceptProb" r = apv -> (apv = VInt 1 /\ ap = 1%Q) \/ (apv = VInt 0 /\ ap = 0%Q) \/ apv = VQ ap ->
  lookup "nseq" r = NS -> lookup "oseq" r = OS -> lookup "seqcount" r = VInt sc -> lookup "bincts" r = bv ->
  rest "rand.random#2" [] = VQ u2 -> rest ".kappa" [NS] = VQ kn -> rest "argmin_abs_diff" [bv; VQ kn] = VN j ->
  exists scv, exec st_accept r =
    ONorm (if Qltb u2 ap
           then set "idx_new" (VInt 0) (set "nseq" VNone (set "idx_old" (VN j) (set "kold" (VQ kn) (set "oseq" NS (set "seqcount" scv r)))))
           else set "idx_new" (VInt 0) (set "nseq" VNone r)).
Proof.
  intros OS NS Bd Bb Hap Hcase Hns Hos Hsc Hbv Hu2 Hkn Hj. unfold st_accept.
  assert (T : truthy (eval (ELt (ECall "rand.random#2" []) (EVar "acceptProb")) r) = VBool (Qltb u2 ap)).
  { lazy [MiniPy.eval]. rewrite rest_call, Hu2, Hap by reflexivity. destruct Hcase as [[-> ->]|[[-> ->]| ->]]; reflexivity. }
  rewrite (exec_if_truthy _ _ _ _ _ T). destruct (Qltb u2 ap).
  2:{ exists VNone. rewrite (step_const _ VNone) by reflexivity. apply exec_assign_ok; reflexivity. }
  rewrite exec_spine. change (spine ?a) with st_acc_body. unfold st_acc_body.
  assert (Esc : exists scv, exec (nth 0 st_acc_body SSkip) r = ONorm (set "seqcount" scv r)).
  { cbn [nth st_acc_body].
    rewrite (exec_if_bool _ _ _ _ (sc =? 0)) by (apply eval_eq_int; [rewrite eval_var; exact Hsc | reflexivity]). destruct (sc =? 0).
    - exists (VInt (Z.of_nat (List.length cs) * Z.of_nat (List.length cs))). apply exec_assign_ok; [|reflexivity].
      apply eval_toint_int.
      rewrite (eval_call2 _ _ _ _ (VInt (Z.of_nat (List.length cs))) (VInt 2)); [| | reflexivity | reflexivity | reflexivity].
      + rewrite wl_prim_other by reflexivity. reflexivity.
      + rewrite (eval_call1 _ _ _ OS), wl_prim_other; [reflexivity | reflexivity | reflexivity | rewrite eval_var; exact Hos | reflexivity].
    - exists (VInt (sc - 1)). apply exec_assign_ok; [|reflexivity]. apply eval_sub_int; [rewrite eval_var; exact Hsc | reflexivity]. }
  destruct Esc as [scv Esc]. exists scv. cbn [nth st_acc_body] in Esc.
  rewrite (step_norm_list _ _ _ _ Esc).
  change (set "seqcount" scv r) with (sets [("seqcount"%string, scv)] r).
  rewrite (assign_sets "oseq" _ _ _ _ NS); [| | reflexivity].
  2:{ assert (Fld : forall nm v, wl_num nm [NS] = Some v -> String.eqb nm "__run_flatcheck" = false -> String.eqb nm "indexInsideRelevantRegion" = false ->
                    eval (ECall nm [EVar "nseq"]) (sets [("seqcount"%string, scv)] r) = v).
      { intros nm v W F1 F2. rewrite (eval_call1 _ _ _ NS); [| rewrite var_sets; exact Hns | reflexivity].
        rewrite wl_prim_other by assumption. unfold fc_prim. now rewrite W. }
      rewrite (eval_call3 _ _ _ _ _ (VStr cs') d' (VList (x' :: p')) (Fld ".seq"%string _ eq_refl eq_refl eq_refl) (Fld ".dmax"%string _ eq_refl eq_refl eq_refl)
                 (Fld ".chargePattern"%string _ eq_refl eq_refl eq_refl) eq_refl Bd eq_refl).
      rewrite wl_prim_other by reflexivity. reflexivity. }
  rewrite (assign_sets "kold" _ _ _ _ (VQ kn)); [| | reflexivity].
  2:{ rewrite (eval_call1 _ _ _ NS); [| rewrite var_sets; reflexivity | reflexivity]. rewrite rest_call by reflexivity. exact Hkn. }
  rewrite (assign_sets "idx_old" _ _ _ _ (VN j)); [| | reflexivity].
  2:{ rewrite (eval_call2 _ _ _ _ bv (VQ kn)); [| rewrite var_sets; exact Hbv | rewrite var_sets; reflexivity | exact Bb | reflexivity].
      rewrite rest_call by reflexivity. exact Hj. }
  rewrite (assign_sets "nseq" _ _ _ _ VNone) by reflexivity.
  rewrite (assign_sets "idx_new" _ _ _ _ (VInt 0)) by reflexivity.
  reflexivity.
Qed.

(* the model's step, as the move to the proposal (when the event accepts) followed by the step of an event that does not accept:
   what tail_tie is stated for *)
Lemma wl_step_split (s : wlst) (e : event) :
  let s1 := {| cur := if e_acc e then e_prop e else cur s; idx_old := if e_acc e then e_idx e else idx_old s; gv := gv s; hv := hv s;
               kexp := kexp s; nstep := nstep s; niter := niter s; gbase := gbase s; counted := counted s |} in
  wl_step c s e = wl_step c s1 {| e_prop := []; e_idx := 0; e_skip := e_skip e; e_ap := 0; e_u := 0; e_acc := false |}.
Proof. reflexivity. Qed.

(* ONE ITERATION of `while f > self.convergence:` as the translated code performs it, from ANY state and for ANY outcome
   of the oracles (which move the first uniform draw selects and the object it returns, that object's kappa, the bin the
   nearest-centre search assigns, np.exp of the g difference, the second uniform draw): the state afterwards is exactly
   Model.WL.wl_step of the event these outcomes define — the proposal is accepted iff it lies in the relevant range and
   u < min(1, exp(g_old - g_new)); on acceptance the current object is rebuilt from the proposal's own fields and its bin
   is the proposal's bin; then the update rule and the scheduled flat check (tail_tie) *)
Theorem step_tie (s : wlst) (prop : list aa) (u1 u2 kn ex : Q) (j dq : nat) (rj sc fc : Z)
                 (fz bv pv dv d' x' : value) (p' : list value) r :
  let OS := VList [VStr (map aa_char (cur s)); pv; dv] in let NS := VList [VStr (map aa_char prop); VList (x' :: p'); d'] in
  lookup "nstep" r = VN (nstep s) -> lookup "self.dotdotfreq" r = VN dq -> (0 < dq)%nat ->
  lookup "oseq" r = OS -> lookup "self.frozen" r = fz -> lookup "bincts" r = bv ->
  is_bad pv = false -> is_bad dv = false -> is_bad fz = false -> is_bad bv = false -> is_bad x' = false -> is_bad d' = false ->
  (forall y, In y p' -> is_bad y = false) ->
  lookup "idx_old" r = VN (idx_old s) -> lookup "g" r = VList (map VQ (gv s)) -> lookup "H" r = VList (map VInt (hv s)) ->
  lookup "f" r = VN (kexp s) -> lookup "niter" r = VN (niter s) ->
  lookup "reject" r = VInt rj -> lookup "seqcount" r = VInt sc -> lookup "flatcount" r = VInt fc ->
  lookup "hlog" r = VNone -> lookup "glog" r = VNone ->
  lookup "self.nflatchk" r = VN (nflat c) -> lookup "self.relevant_min" r = VN (rmin c) -> lookup "self.relevant_max" r = VN (rmax c) ->
  rest "rand.random#1" [] = VQ u1 -> rest (mv_name u1) [OS; fz] = NS -> rest ".kappa" [NS] = VQ kn ->
  rest "argmin_abs_diff" [bv; VQ kn] = VN j ->
  (in_range c j = true -> rest "np.exp" [VQ (Qred (nth (idx_old s) (gv s) 0%Q - nth j (gv s) 0%Q))] = VQ ex) ->
  rest "rand.random#2" [] = VQ u2 ->
  (idx_old s < List.length (gv s))%nat -> (j < List.length (gv s))%nat -> List.length (hv s) = List.length (gv s) ->
  (0 < nflat c)%nat -> (1 <= nb_target c)%nat -> (rmin c + nb_target c <= List.length (hv s))%nat -> (forall x, In x (hv s) -> 0 <= x) ->
  let inr := in_range c j in
  let apq := if inr then (if Qle_bool 1 ex then 1%Q else ex) else 0%Q in
  let acc := Qltb u2 apq in
  let e := {| e_prop := prop; e_idx := j; e_skip := negb inr; e_ap := apq; e_u := u2; e_acc := acc |} in
  let s' := wl_step c s e in
  ((S (nstep s) mod nflat c =? 0)%nat = true ->
     sumZ (hlocal c (if negb inr then hv s else upd (hv s) (if acc then j else idx_old s) (fun x => x + 1))) <> 0) ->
  exists r', exec g_wl_step r = ONorm r' /\
    lookup "oseq" r' = (if acc then NS else OS) /\
    lookup "g" r' = VList (map VQ (gv s')) /\ lookup "H" r' = VList (map VInt (hv s')) /\ lookup "f" r' = VN (kexp s') /\
    lookup "nstep" r' = VN (nstep s') /\ lookup "niter" r' = VN (niter s') /\ lookup "idx_old" r' = VN (idx_old s').
Proof.
  intros OS NS Hns Hdq Hdqp Hos Hfz Hbv Bpv Bdv Bfz Bbv Bx' Bd' Bp' Hio Hg HH Hf Hni Hrj Hsc Hfc Hhl Hgl Hnf Hmin Hmax
         Hu1 Hmv Hkn Hj Hex Hu2 Lio Lj Lhg Hnfp Hnt Hlen Hpos inr apq acc e s' Htot.
  assert (BOS : is_bad OS = false) by reflexivity. assert (BNS : is_bad NS = false) by reflexivity.
  rewrite exec_spine. change (spine g_wl_step) with st_spine. rewrite st_split, exec_list_app, st_head_eq, exec_list_app.
  rewrite (propose_run u1 kn (nstep s) dq j OS fz bv NS r) by assumption.
  set (r4 := sets _ r).
  (* st_inside: r5 is the state it leaves, apv what acceptProb holds there; L5: everything else is as in r4 *)
  rewrite exec_list_cons, (inside_run (gv s) (idx_old s) j rj ex r4) by (assumption || (unfold r4; rewrite lookup_sets; assumption || reflexivity)).
  fold inr.
  set (r5 := if inr then set "acceptProb" (if Qle_bool 1 ex then VInt 1 else VQ ex) r4
             else set "skip" (VBool true) (set "acceptProb" (VInt 0) (set "reject" (VInt (rj + 1)) r4))).
  set (apv := if inr then (if Qle_bool 1 ex then VInt 1 else VQ ex) else VInt 0).
  assert (L5 : forall x, String.eqb x "acceptProb" = false -> String.eqb x "skip" = false -> String.eqb x "reject" = false -> lookup x r5 = lookup x r4).
  { intros x E1 E2 E3. unfold r5. destruct inr; now rewrite ?lookup_set_neq by assumption. }
  (* st_accept: r6 and L6 likewise *)
  destruct (accept_run u2 apq kn apv bv dv pv d' x' (map aa_char (cur s)) (map aa_char prop) p' j sc r5) as [scv Ea];
    try assumption.
  { unfold r5, apv. destruct inr; lk; reflexivity. }
  { unfold apv, apq. destruct inr; [destruct (Qle_bool 1 ex)|]; auto. }
  1-4: rewrite L5 by reflexivity; unfold r4; rewrite lookup_sets; assumption || reflexivity.
  rewrite exec_list_cons, Ea. fold acc. cbn [MiniPy.exec_list].
  set (r6 := if acc then _ else _).
  pose (s1 := {| cur := if acc then prop else cur s; idx_old := if acc then j else idx_old s; gv := gv s; hv := hv s;
                 kexp := kexp s; nstep := nstep s; niter := niter s; gbase := gbase s; counted := counted s |}).
  assert (L6 : forall x, String.eqb x "idx_new" = false -> String.eqb x "nseq" = false -> String.eqb x "idx_old" = false ->
                         String.eqb x "kold" = false -> String.eqb x "oseq" = false -> String.eqb x "seqcount" = false -> lookup x r6 = lookup x r5).
  { intros x E1 E2 E3 E4 E5 E6. unfold r6. destruct acc; now rewrite ?lookup_set_neq by assumption. }
  destruct (tail_tie c conv rest s1 (negb inr) fc r6) as [r7 [E7 [Hg7 [HH7 [Hf7 [Hn7 [Hi7 [Hio7 Hos7]]]]]]]]; cbn [idx_old gv hv kexp nstep niter s1]; try assumption.
  all: try (rewrite L6, L5 by reflexivity; unfold r4; rewrite lookup_sets; assumption).
  { rewrite L6 by reflexivity. unfold r5. destruct inr; lk; [unfold r4; rewrite lookup_sets|]; reflexivity. }
  { unfold r6. destruct acc; lk; [reflexivity|]. rewrite L5 by reflexivity. unfold r4. rewrite lookup_sets. exact Hio. }
  { destruct acc; assumption. }
  { rewrite Lhg. destruct acc; assumption. }
  exists r7. split; [exact E7|].
  rewrite Hos7, Hg7, HH7, Hf7, Hn7, Hi7, Hio7. unfold s'. rewrite (wl_step_split s e). cbn [e_acc e_prop e_idx e_skip e]. fold s1.
  repeat split; try reflexivity.
  unfold r6. destruct acc; lk; [reflexivity|]. rewrite L5 by reflexivity. unfold r4. rewrite lookup_sets. exact Hos.
Qed.
End Step.
Print Assumptions step_tie.

(* the translated loop body runs; the hypotheses of step_tie are satisfiable *)
Definition ex_c : wlcfg := {| nb_target := 2; nb_actual := 4; rmin := 1; nflat := 2; crit := 1 # 2 |}.
Definition ex_NS : value := VList [VStr (map aa_char [Glu; Lys; Gly]); VList [VInt (-1); VInt 1; VInt 0]; VInt (-1)].
Definition ex_rest (name : string) (args : list value) : value :=
  if String.eqb name "rand.random#1" then VQ (1 # 2)
  else if String.eqb name ".permute_block_swap" then ex_NS
  else if String.eqb name ".kappa" then VQ (3 # 5)
  else if String.eqb name "argmin_abs_diff" then VInt 2
  else if String.eqb name "np.exp" then VQ (2 # 1)
  else if String.eqb name "rand.random#2" then VQ (1 # 4)
  else VErr.
Definition ex_s : wlst := {| cur := [Lys; Glu; Gly]; idx_old := 1; gv := [0; 1; 0; 0]%Q; hv := [0; 1; 0; 0]; kexp := 0; nstep := 1; niter := 0;
                             gbase := repeat 0%Q 4; counted := 1 |}.
Definition ex_env : env :=
  [("nstep"%string, VInt 1); ("self.dotdotfreq"%string, VInt 5); ("oseq"%string, VList [VStr (map aa_char [Lys; Glu; Gly]); VList [VInt 1; VInt (-1); VInt 0]; VInt (-1)]);
   ("self.frozen"%string, VList []); ("bincts"%string, VNone); ("idx_old"%string, VInt 1); ("g"%string, VList (map VQ [0; 1; 0; 0]%Q));
   ("H"%string, VList (map VInt [0; 1; 0; 0])); ("f"%string, VInt 0); ("niter"%string, VInt 0); ("reject"%string, VInt 0); ("seqcount"%string, VInt 0);
   ("flatcount"%string, VInt 0); ("hlog"%string, VNone); ("glog"%string, VNone); ("self.nflatchk"%string, VInt 2);
   ("self.relevant_min"%string, VInt 1); ("self.relevant_max"%string, VInt 2)].
Definition ex_event : event := {| e_prop := [Glu; Lys; Gly]; e_idx := 2; e_skip := false; e_ap := 1; e_u := 1 # 4; e_acc := true |}.
Example step_runs :
  match MiniPy.exec (wl_prim ex_c (1 # 1000) ex_rest) 0 g_wl_step ex_env with
  | ONorm r' => let s' := wl_step ex_c ex_s ex_event in
                veqb (lookup "oseq" r') ex_NS &&
                veqb (lookup "H" r') (VList (map VInt (hv s'))) && veqb (lookup "g" r') (VList (map VQ (gv s'))) &&
                veqb (lookup "f" r') (VN (kexp s')) && veqb (lookup "nstep" r') (VN (WL.nstep s')) &&
                veqb (lookup "niter" r') (VN (niter s')) && veqb (lookup "idx_old" r') (VN (idx_old s')) &&
                (* a scheduled check with a flat window happened: H zeroed, f -> sqrt f *)
                Nat.eqb (kexp s') 1 && Nat.eqb (niter s') 1
  | _ => false
  end = true.
Proof. vm_compute. reflexivity. Qed.

(* the bin geometry of __init__ (NORMAL run) *)
Section Geometry.
Variable nb : nat.
Variables bmin bmax : Q.

Definition argmin_q (cts : list Q) (t : Q) : nat :=
  fold_left (fun best i => if Qle_bool (Qabs (nth best cts 0%Q - t)) (Qabs (nth i cts 0%Q - t)) then best else i) (seq 1 (List.length cts - 1)) 0%nat.
Definition centres_of (na : nat) : list Q := map (fun i => Z.of_nat (2 * i + 1) # Pos.of_nat (2 * na)) (seq 0 na).
Fixpoint qs_of (l : list value) : option (list Q) :=
  match l with [] => Some [] | VQ q :: l' => option_map (cons q) (qs_of l') | _ => None end.

Definition geo_prim (name : string) (args : list value) : value :=
  if String.eqb name "qdiv" then
    match args with
    | [a; b] => match as_Q a, as_Q b with
                | Some x, Some y => if Qeq_bool y 0 then VExc else VQ (Qred (x / y))
                | _, _ => VErr
                end
    | _ => VErr
    end
  else if String.eqb name "round" then match args with [VQ x] => VInt (round_half_even x) | _ => VErr end
  else if String.eqb name "getBinCenters" then match args with [VInt na] => VList (map VQ (centres_of (Z.to_nat na))) | _ => VErr end
  else if String.eqb name "argmin_abs_diff" then
    match args with [VList l; VQ t] => match qs_of l with Some cts => VN (argmin_q cts t) | None => VErr end | _ => VErr end
  else VErr.

Lemma qs_of_map l : qs_of (map VQ l) = Some l.
Proof. induction l as [|q l IH]; [reflexivity|]. cbn [map qs_of]. now rewrite IH. Qed.

Definition bw : Q := Qred (Qred (bmax - bmin) / inject_Z (Z.of_nat nb)).
Definition na_code : Z := round_half_even (Qred (inject_Z 1 / bw)).
Definition rmin_code : nat := argmin_q (centres_of (Z.to_nat na_code)) (Qred (bmin + Qred (bw / inject_Z 2))).

(* the geometry block on EVERY requested range (rationals) and bin number: binWidth, round(1 / binWidth) to the even neighbour
   at exact halves, the first centre nearest to binmin + binWidth / 2, and relevant_max = relevant_min + nbins - 1 *)
Theorem geometry_tie r : (1 <= nb)%nat -> ~ (bmax - bmin == 0)%Q -> 0 <= na_code ->
  lookup "binmin" r = VQ bmin -> lookup "binmax" r = VQ bmax -> lookup "self.nbins_target" r = VN nb ->
  exists r', MiniPy.exec geo_prim 0 g_wl_geometry r = ONorm r' /\
    lookup "self.nbins_actual" r' = VInt na_code /\ lookup "self.relevant_min" r' = VN rmin_code /\
    lookup "self.relevant_max" r' = VInt (Z.of_nat rmin_code + Z.of_nat nb - 1) /\
    lookup "self.binmin" r' = VQ bmin /\ lookup "self.binmax" r' = VQ bmax.
Proof.
  intros Hnb Hd Hna Hmin Hmax Hnt.
  pose proof (inject_Z_nz (Z.of_nat nb) ltac:(lia)) as Hn.
  assert (Hbw : Qeq_bool bw 0 = false).
  { apply Qeq_bool_false. intros C. unfold bw in C. rewrite !Qred_correct in C. apply Hd.
    transitivity ((bmax - bmin) / inject_Z (Z.of_nat nb) * inject_Z (Z.of_nat nb))%Q; [field; exact Hn | rewrite C; ring]. }
  unfold g_wl_geometry. rewrite exec_spine. cbn [spine]. change r with (sets [] r) at 1.
  rewrite (assign_sets "self.binmin" _ _ _ _ (VQ bmin)); [| rewrite var_sets; exact Hmin | reflexivity].
  rewrite (assign_sets "self.binmax" _ _ _ _ (VQ bmax)); [| rewrite var_sets; exact Hmax | reflexivity].
  rewrite (assign_sets "diff" _ _ _ _ (VQ (Qred (bmax - bmin)))); [| apply eval_sub_Q; rewrite var_sets; reflexivity | reflexivity].
  rewrite (assign_sets "binWidth" _ _ _ _ (VQ bw)); [| | reflexivity].
  2:{ apply (eval_qdiv _ _ _ (VQ (Qred (bmax - bmin))) (VN nb) _ _ (fun _ => eq_refl)); [rewrite var_sets; reflexivity | rewrite var_sets; exact Hnt | apply NQ | apply NI |].
      apply Qeq_bool_false, Hn. }
  rewrite (assign_sets "self.nbins_actual" _ _ _ _ (VInt na_code)); [| | reflexivity].
  2:{ apply eval_toint_int. rewrite (eval_call1 _ _ _ (VQ (Qred (inject_Z 1 / bw)))); [unfold na_code; reflexivity | | reflexivity].
      apply (eval_qdiv _ _ _ (VInt 1) (VQ bw) _ _ (fun _ => eq_refl)); [reflexivity | rewrite var_sets; reflexivity | apply NI | apply NQ | exact Hbw]. }
  rewrite (assign_sets "bincts" _ _ _ _ (VList (map VQ (centres_of (Z.to_nat na_code))))); [| | reflexivity].
  2:{ rewrite (eval_call1 _ _ _ (VInt na_code)); [reflexivity | rewrite var_sets; reflexivity | reflexivity]. }
  rewrite (assign_sets "self.relevant_min" _ _ _ _ (VN rmin_code)); [| | reflexivity].
  2:{ rewrite (eval_call2 _ _ _ _ (VList (map VQ (centres_of (Z.to_nat na_code)))) (VQ (Qred (bmin + Qred (bw / inject_Z 2)))));
        [| rewrite var_sets; reflexivity | | reflexivity | reflexivity].
      - change (geo_prim "argmin_abs_diff" [VList ?l; VQ ?t]) with (match qs_of l with Some cts => VN (argmin_q cts t) | None => VErr end).
        rewrite qs_of_map. unfold rmin_code. reflexivity.
      - apply eval_add_Q; [rewrite var_sets; reflexivity|].
        apply (eval_qdiv _ _ _ (VQ bw) (VInt 2) _ _ (fun _ => eq_refl)); [rewrite var_sets; reflexivity | reflexivity | apply NQ | apply NI | reflexivity]. }
  rewrite (assign_sets "self.relevant_max" _ _ _ _ (VInt (Z.of_nat rmin_code + Z.of_nat nb - 1))); [| | reflexivity].
  2:{ apply eval_sub_int; [|reflexivity]. apply eval_add_int; rewrite var_sets; [reflexivity | exact Hnt]. }
  eexists. split; [reflexivity|]. repeat split; rewrite lookup_sets; reflexivity.
Qed.

Lemma argmin_is_rmin na (w t : Q) : (t == bmin + w / 2)%Q -> argmin_q (centres_of na) t = rmin_of na w bmin.
Proof.
  intros Ht. assert (Hlen : List.length (centres_of na) = na) by (unfold centres_of; now rewrite map_length, seq_length).
  unfold argmin_q, rmin_of. rewrite Hlen. destruct na as [|na]; [reflexivity|].
  apply (argmin_fold_ext (fun i => Qabs (nth i (centres_of (S na)) 0%Q - t))
                         (fun i => Qabs ((Z.of_nat (2 * i + 1) # Pos.of_nat (2 * S na)) - (bmin + w / 2))) (S na)).
  - intros i Hi. unfold centres_of. rewrite (nth_map_seq _ 0 (S na) i 0%Q Hi), Ht. reflexivity.
  - lia.
  - intros i Hi. apply in_seq in Hi. lia.
Qed.

Theorem geometry_is_model : (1 <= nb)%nat -> ~ (bmax - bmin == 0)%Q -> (Z.to_nat na_code, rmin_code) = geom_of nb bmin bmax.
Proof.
  intros Hnb Hd. unfold geom_of. cbv zeta.
  set (w := ((bmax - bmin) / inject_Z (Z.of_nat nb))%Q).
  assert (Hw : (bw == w)%Q) by (unfold bw, w; rewrite !Qred_correct; reflexivity).
  assert (Ena : na_code = round_half_even (1 / w)).
  { unfold na_code. apply rhe_compat. rewrite Qred_correct, Hw. reflexivity. }
  unfold rmin_code. rewrite Ena. f_equal. apply argmin_is_rmin. rewrite !Qred_correct, Hw. reflexivity.
Qed.
End Geometry.
Print Assumptions geometry_tie.
Print Assumptions geometry_is_model.

Example geometry_runs : (* [0.1, 0.9] in 2 bins: 1 / 0.4 = 2.5 rounds to the even neighbour 2 *)
  na_code 2 (1 # 10) (9 # 10) = 2 /\ rmin_code 2 (1 # 10) (9 # 10) = 0%nat /\ Model.WL.geom_of 2 (1 # 10) (9 # 10) = (2%nat, 0%nat) /\
  na_code 3 (1 # 10) (8 # 10) = 4 /\ Model.WL.geom_of 3 (1 # 10) (8 # 10) = (4%nat, rmin_code 3 (1 # 10) (8 # 10)).
Proof. repeat split; vm_compute; reflexivity. Qed.
