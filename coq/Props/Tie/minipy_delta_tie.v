(* Tie (C01, C02) — SEMANTIC: Sequence.sigma, deltaForm, delta and kappa, translated from the working tree on every run
   into Core.MiniPy terms.  Every `a / b` of these four functions is the primitive "qdiv" (exact rational division: float
   arithmetic read as exact, the abstraction of Model/Delta.v); x ** 2 is "pow".  self.sigma() / self.deltaForm(w) /
   self.delta() and — below them — self.NCPR() / self.FCR() / self.countPos() / countNeg() / countNeut() are interpreted by
   RUNNING their translated bodies, so the chain ends at the charge pattern; deltaMax is an ORACLE.  For EVERY charge pattern the translated code returns
   exactly Model.Delta.m_sigma / m_deltaForm / m_delta, and kappa's sentinel / clamp decisions are the model's. *)
From Coq Require Import List String QArith Lia.
From LC Require Import Core.Lists Core.QTools Core.MiniPy Core.MiniPyData Core.MiniPyExec Spec.Delta Model.Delta Proofs.Delta Gen.GMiniPy.
Import ListNotations.
Local Open Scope Z_scope.

Section DeltaTie.
Variable p : list Z.                  (* self.chargePattern *)
Local Notation N := (List.length p).

Definition prim00 (name : string) (args : list value) : value :=
  if String.eqb name "qdiv" then
    match args with
    | [a; b] => match as_Q a, as_Q b with
                | Some x, Some y => if Qeq_bool y 0 then VExc else VQ (Qred (x / y))
                | _, _ => VErr
                end
    | _ => VErr
    end
  else if String.eqb name "pow" then
    match args with
    | [VInt a; VInt 2] => VInt (a * a)
    | [VQ q; VInt 2] => VQ (Qred (q * q))
    | _ => VErr
    end
  else VErr.

(* self.countPos() / countNeg() / countNeut() are interpreted by RUNNING their translated bodies on the pattern *)
Definition cnt_env : env := [("self.chargePattern"%string, VList (map VInt p))].
Definition run_cnt (g : stmt) : value := match MiniPy.exec prim00 0 g cnt_env with ORet v => v | ORaise => VExc | _ => VErr end.
Definition primA (name : string) (args : list value) : value :=
  if String.eqb name "countPos" then match args with [] => run_cnt g_countPos | _ => VErr end
  else if String.eqb name "countNeg" then match args with [] => run_cnt g_countNeg | _ => VErr end
  else if String.eqb name "countNeut" then match args with [] => run_cnt g_countNeut | _ => VErr end
  else prim00 name args.
(* self.NCPR() / self.FCR() (no pH) are interpreted by RUNNING their translated bodies *)
Definition frac_env : env := [("self.len"%string, VInt (len p)); ("pH"%string, VNone)].
Definition run_frac (g : stmt) : value := match MiniPy.exec primA 0 g frac_env with ORet v => v | ORaise => VExc | _ => VErr end.
Definition prim0 (name : string) (args : list value) : value :=
  if String.eqb name "NCPR" then match args with [] => run_frac g_NCPR | _ => VErr end
  else if String.eqb name "FCR" then match args with [] => run_frac g_FCR | _ => VErr end
  else primA name args.
Lemma prim0_qdiv : prim0 "qdiv" = qdiv_prim. Proof. reflexivity. Qed.

Lemma count_where cond f : (forall z k r, truthy (MiniPy.eval prim00 cond (set "$x" (VInt z) (set "$i" (VInt k) r))) = VBool (f z)) ->
  run_cnt (SReturn (ELen (EEnumFilter "$i" "$x" cond (EVar "$i") (EVar "self.chargePattern")))) = VInt (cnt f p).
Proof.
  intros Hc. unfold run_cnt. rewrite (exec_return_ok _ _ (VInt (cnt f p))); [reflexivity | | reflexivity].
  apply (eval_cnt_enumfilter _ _ _ _ VInt f p cnt_env (VList (map VInt p))).
  - reflexivity.
  - reflexivity.
  - reflexivity.
  - intros z k. apply Hc.
Qed.
Lemma call_pos : primA "countPos" [] = VInt (npos p).
Proof. exact (count_where _ isposb (fun z k r => cond_gt0 "$x" z _)). Qed.
Lemma call_neg : primA "countNeg" [] = VInt (nneg p).
Proof. exact (count_where _ isnegb (fun z k r => cond_lt0 "$x" z _)). Qed.
Lemma three_way (l : list Z) : cnt (fun z => z =? 0) l = len l - npos l - nneg l.
Proof. exact (nneut_cnt l). Qed.
Lemma call_neut : primA "countNeut" [] = VInt (nneut p).
Proof. unfold nneut. rewrite <- three_way. exact (count_where _ (fun z => z =? 0) (fun z k r => cond_eq0 "$x" z _)). Qed.

Definition lenq : Q := Qred (inject_Z (len p) + 0).
Lemma frac_call (g : stmt) (a : stmt) (e : expr) c : g = SIf (ENe (EVar "pH") (EConst VNone)) a (SReturn (ECall "qdiv" [e; EAdd (EVar "self.len") (EConst (VQ (0 # 1)))])) ->
  MiniPy.eval primA e frac_env = VInt c -> 0 < len p -> run_frac g = VQ (Qred (inject_Z c / lenq)).
Proof.
  intros -> He Hn. unfold run_frac.
  assert (T : truthy (MiniPy.eval primA (ENe (EVar "pH") (EConst VNone)) frac_env) = VBool false) by reflexivity.
  rewrite (exec_if_false _ _ _ _ T).
  assert (E2 : MiniPy.eval primA (EAdd (EVar "self.len") (EConst (VQ (0 # 1)))) frac_env = VQ lenq) by reflexivity.
  rewrite (exec_return_ok _ _ (VQ (Qred (inject_Z c / lenq)))); [reflexivity | | reflexivity].
  apply (eval_qdiv _ _ _ _ _ _ _ (fun _ => eq_refl) He E2 (NI c) (NQ lenq)).
  unfold lenq. rewrite Qeq_bool_floatlen. apply Z.eqb_neq. lia.
Qed.
Lemma call_ncpr : 0 < len p -> prim0 "NCPR" [] = VQ (Qred (inject_Z (npos p - nneg p) / lenq)).
Proof.
  intros Hn. apply (frac_call g_NCPR _ (ESub (ECall "countPos" []) (ECall "countNeg" [])) _ eq_refl); [|exact Hn].
  apply eval_sub_int; [rewrite eval_call0; apply call_pos | rewrite eval_call0; apply call_neg].
Qed.
Lemma call_fcr : 0 < len p -> prim0 "FCR" [] = VQ (Qred (inject_Z (npos p + nneg p) / lenq)).
Proof.
  intros Hn. apply (frac_call g_FCR _ (EAdd (ECall "countPos" []) (ECall "countNeg" [])) _ eq_refl); [|exact Hn].
  apply eval_add_int; [rewrite eval_call0; apply call_pos | rewrite eval_call0; apply call_neg].
Qed.
Lemma frac_eq c : 0 < len p -> (Qred (inject_Z c / lenq) == c # Z.to_pos (len p))%Q.
Proof. intros Hn. rewrite Qred_correct. exact (div_floatlen c (len p) Hn). Qed.

Definition sigma_val : value := if nneut p =? len p then VInt 0 else VQ (m_sigma p).

Lemma pos_Q (x : Z) (d : positive) : 0 < x -> ~ (x # d == 0)%Q.
Proof. intros H E. unfold Qeq in E. cbn in E. lia. Qed.

Theorem sigma_tie r : lookup "self.len" r = VInt (len p) -> MiniPy.exec prim0 0 g_sigma r = ORet sigma_val.
Proof.
  intros Hl. unfold g_sigma, sigma_val.
  assert (Ecn : MiniPy.eval prim0 (ECall "countNeut" []) r = VInt (nneut p)) by (rewrite eval_call0; exact call_neut).
  rewrite (exec_if_truthy _ _ _ _ (nneut p =? len p)) by (rewrite (eval_eq_int _ (EVar "self.len") _ _ _ Ecn Hl); reflexivity).
  destruct (nneut p =? len p) eqn:Ez; [reflexivity|]. apply exec_return_ok; [|reflexivity].
  assert (Hpn : 0 < npos p + nneg p).
  { apply Z.eqb_neq in Ez. unfold nneut in Ez. pose proof (cnt_nonneg isposb p). pose proof (cnt_nonneg isnegb p). unfold npos, nneg in *. lia. }
  assert (Hn : 0 < len p).
  { pose proof (cnt_le_length isposb p). pose proof (cnt_le_length isnegb p). unfold npos, nneg, len in *. lia. }
  set (nc := Qred (inject_Z (npos p - nneg p) / lenq)). set (fc := Qred (inject_Z (npos p + nneg p) / lenq)).
  assert (Hf : Qeq_bool fc 0 = false).
  { apply Qeq_bool_false. unfold fc. rewrite (frac_eq _ Hn). apply pos_Q, Hpn. }
  rewrite (eval_call2 _ _ _ _ (VQ (Qred (nc * nc))) (VQ fc)); [| | exact (call_fcr Hn) | reflexivity | reflexivity].
  2:{ rewrite (eval_call2 _ _ _ _ (VQ nc) (VInt 2)); [reflexivity | exact (call_ncpr Hn) | reflexivity | reflexivity | reflexivity]. }
  rewrite prim0_qdiv, (qdiv_prim_numv _ _ _ _ (NQ _) (NQ fc)), Hf.
  unfold m_sigma. rewrite Ez. f_equal. apply Qred_complete. unfold nc, fc. rewrite Qred_correct, !(frac_eq _ Hn). reflexivity.
Qed.

(* self.sigma() is interpreted by RUNNING the translated sigma *)
Definition prim1 (name : string) (args : list value) : value :=
  if String.eqb name "sigma" then
    match args with
    | [] => match MiniPy.exec prim0 0 g_sigma [("self.len"%string, VInt (len p))] with ORet v => v | ORaise => VExc | _ => VErr end
    | _ => VErr
    end
  else prim0 name args.
Local Notation exec := (MiniPy.exec prim1 0).
Local Notation eval := (MiniPy.eval prim1).

Lemma prim1_qdiv : prim1 "qdiv" = qdiv_prim. Proof. reflexivity. Qed.
Lemma sigma_call : prim1 "sigma" [] = sigma_val.
Proof. unfold prim1. cbn [String.eqb Ascii.eqb Bool.eqb]. now rewrite (sigma_tie [("self.len"%string, VInt (len p))] eq_refl). Qed.
Lemma sigma_asQ : as_Q sigma_val = Some (m_sigma p).
Proof. unfold sigma_val, m_sigma. destruct (nneut p =? len p); reflexivity. Qed.

Variable w : nat.
Hypothesis Hw : (1 <= w)%nat.
Definition wq : Q := Qred (inject_Z (Z.of_nat w) + 0).
Lemma wq_pos_eq (x : Z) : (inject_Z x / wq == x # Z.to_pos (Z.of_nat w))%Q.
Proof. apply div_floatlen. lia. Qed.
Lemma wq_nonzero : Qeq_bool wq 0 = false.
Proof. unfold wq. rewrite Qeq_bool_floatlen_nat. apply Nat.eqb_neq. lia. Qed.

Lemma eval_qdiv_int (e1 : expr) d r : eval e1 r = VInt d -> lookup "bloblen" r = VN w ->
  eval (ECall "qdiv" [e1; EAdd (EVar "bloblen") (EConst (VQ (0 # 1)))]) r = VQ (Qred (inject_Z d / wq)).
Proof.
  intros H1 Hb.
  assert (E2 : eval (EAdd (EVar "bloblen") (EConst (VQ (0 # 1)))) r = VQ wq) by (apply eval_add_Q_int_l; [exact Hb | reflexivity]).
  exact (eval_qdiv _ _ _ _ _ _ _ (fun _ => eq_refl) H1 E2 (NI d) (NQ wq) wq_nonzero).
Qed.

(* the blob sigma as a value: VInt 0 when the window is uncharged, else the model's rational *)
Definition bsig_val (b : list Z) : value := if npos b + nneg b =? 0 then VInt 0 else VQ (m_bsigma (Z.of_nat w) b).
Lemma bsig_asQ b : as_Q (bsig_val b) = Some (m_bsigma (Z.of_nat w) b).
Proof. unfold bsig_val, m_bsigma. destruct (npos b + nneg b =? 0); reflexivity. Qed.

Definition df_spine : list stmt := Eval vm_compute in spine g_deltaForm.
Definition df_body : stmt := Eval vm_compute in match nth 3 df_spine SSkip with SFor _ _ b => b | _ => SSkip end.
Definition df_bspine : list stmt := Eval vm_compute in spine df_body.
Lemma df_parts : df_spine = [SAssign "sigma" (ECall "sigma" []); SAssign "nblobs" (EAdd (ESub (EVar "self.len") (EVar "bloblen")) (EConst (VInt 1)));
                             SAssign "ans" (EConst (VInt 0)); SFor "i" (ERange (EConst (VInt 0)) (EVar "nblobs")) df_body; SReturn (EVar "ans")].
Proof. reflexivity. Qed.

(* the statements of one iteration up to and including bsig *)
Lemma df_bsig i r : (i + w <= N)%nat ->
  lookup "self.chargePattern" r = VList (map VInt p) -> lookup "bloblen" r = VN w ->
  let b := firstn w (skipn i p) in
  let nq := Qred (inject_Z (npos b - nneg b) / wq) in let fq := Qred (inject_Z (npos b + nneg b) / wq) in
  MiniPy.exec_list prim1 0 (firstn 6 df_bspine) (set "i" (VN i) r) =
  ONorm (set "bsig" (bsig_val b) (set "bfcr" (VQ fq) (set "bncpr" (VQ nq) (set "bneg" (VInt (nneg b)) (set "bpos" (VInt (npos b))
        (set "blob" (VList (map VInt b)) (set "i" (VN i) r))))))).
Proof.
  intros Hi Hp Hb b nq fq. cbn [firstn df_bspine].
  rewrite (step_assign_list _ _ _ _ (VList (map VInt b))); [| | reflexivity].
  2:{ rewrite (eval_slice_list _ _ _ _ (map VInt p) (Z.of_nat i) (Z.of_nat i + Z.of_nat w)).
      - exact (slice_list_nat VInt p i w Hi).
      - var Hp.
      - apply lookup_set_eq.
      - apply eval_add_int; rewrite eval_var; lk; [reflexivity | exact Hb]. }
  rewrite (step_assign_list _ _ _ _ _ (count_pos _ b _ (lookup_set_eq _ _ _)) eq_refl).
  rewrite (step_assign_list _ _ _ _ (VInt (nneg b))); [| apply count_neg; lk; reflexivity | reflexivity].
  rewrite (step_assign_list _ _ _ _ (VQ nq)); [| | reflexivity].
  2:{ apply eval_qdiv_int; [| lk; exact Hb]. apply eval_sub_int; rewrite eval_var; lk; reflexivity. }
  rewrite (step_assign_list _ _ _ _ (VQ fq)); [| | reflexivity].
  2:{ apply eval_qdiv_int; [| lk; exact Hb]. apply eval_add_int; rewrite eval_var; lk; reflexivity. }
  assert (Hz : Qeq_bool fq 0 = (npos b + nneg b =? 0)).
  { unfold fq. destruct (Z.eqb_spec (npos b + nneg b) 0) as [E|E].
    - rewrite E. apply Qeq_bool_iff. rewrite Qred_correct, wq_pos_eq. reflexivity.
    - apply Qeq_bool_false. rewrite Qred_correct, wq_pos_eq. unfold Qeq. cbn. lia. }
  rewrite (step_if_list _ _ _ _ _ (npos b + nneg b =? 0)).
  2:{ rewrite (eval_eq_val _ _ _ (VQ fq) (VInt 0)); [cbn [veqb truthy]; now rewrite <- Hz | apply lookup_set_eq | reflexivity ..]. }
  unfold bsig_val, m_bsigma. destruct (npos b + nneg b =? 0).
  - rewrite (step_const_list _ (VInt 0)) by reflexivity. reflexivity.
  - erewrite step_assign_list; [reflexivity | | reflexivity].
    rewrite (eval_call2 _ _ _ _ (VQ (Qred (nq * nq))) (VQ fq)); [| | rewrite eval_var; lk; reflexivity | reflexivity | reflexivity].
    2:{ rewrite (eval_call2 _ _ _ _ (VQ nq) (VInt 2)); [reflexivity | rewrite eval_var; lk; reflexivity | reflexivity | reflexivity | reflexivity]. }
    rewrite prim1_qdiv, (qdiv_prim_numv _ _ _ _ (NQ _) (NQ fq)), Hz. f_equal. apply Qred_complete.
    unfold nq, fq. rewrite !Qred_correct, !wq_pos_eq. reflexivity.
Qed.

Lemma sigma_num : numv sigma_val (m_sigma p).
Proof. unfold sigma_val, m_sigma. destruct (nneut p =? len p); [apply (NI 0) | apply NQ]. Qed.
Lemma bsig_num b : numv (bsig_val b) (m_bsigma (Z.of_nat w) b).
Proof. unfold bsig_val, m_bsigma. destruct (npos b + nneg b =? 0); [apply (NI 0) | apply NQ]. Qed.

(* ans += (sigma - bsig) ** 2 / nblobs *)
Lemma df_ans (b : list Z) (av : value) (a : Q) (nb : Z) r : nb <> 0 -> numv av a ->
  lookup "sigma" r = sigma_val -> lookup "bsig" r = bsig_val b -> lookup "ans" r = av -> lookup "nblobs" r = VInt nb ->
  MiniPy.exec_list prim1 0 (skipn 6 df_bspine) r = ONorm (set "ans" (VQ (Qred (a + sqQ (m_sigma p - m_bsigma (Z.of_nat w) b) / inject_Z nb))) r).
Proof.
  intros Hn Ha Hs Hb Hav Hnb. cbn [skipn df_bspine].
  destruct (eval_sub_num (prim:=prim1) (EVar "sigma") (EVar "bsig") r _ _ _ _ Hs Hb sigma_num (bsig_num b)) as [dv [dq [Ed [Nd Qd]]]].
  destruct (sq_prim_num dv dq Nd) as [pv [pq [Ep [Np Qp]]]].
  assert (Epow : eval (ECall "pow" [ESub (EVar "sigma") (EVar "bsig"); EConst (VInt 2)]) r = pv).
  { rewrite (eval_call2 _ _ _ _ dv (VInt 2) Ed (eval_const _ _) (numv_ok _ _ Nd) eq_refl). exact Ep. }
  erewrite step_assign_list; [reflexivity | | reflexivity].
  rewrite (eval_add_num_Q _ _ _ av a (Qred (pq / inject_Z nb))); [| exact Hav | exact Ha |].
  2:{ rewrite (eval_call2 _ _ _ _ pv (VInt nb) Epow); [exact (qdiv_prim_num pv pq nb Np Hn) | exact Hnb | exact (numv_ok _ _ Np) | reflexivity]. }
  f_equal. apply Qred_complete. rewrite Qred_correct, Qp, Qd. unfold sqQ. reflexivity.
Qed.

Definition df_step (nb : Z) (ans : Q) (i : nat) : Q :=
  Qred (ans + sqQ (m_sigma p - m_bsigma (Z.of_nat w) (firstn w (skipn i p))) / inject_Z nb).

(* what the loop keeps: the variables it reads, and the running sum *)
Definition df_inv (nb : Z) (av : value) (r : env) : Prop :=
  lookup "self.chargePattern" r = VList (map VInt p) /\ lookup "bloblen" r = VN w /\ lookup "sigma" r = sigma_val /\
  lookup "nblobs" r = VInt nb /\ lookup "ans" r = av.

Lemma df_iter (nb : Z) i av a r : nb <> 0 -> numv av a -> (i + w <= N)%nat -> df_inv nb av r ->
  exists r', exec df_body (set "i" (VN i) r) = ONorm r' /\ df_inv nb (VQ (df_step nb a i)) r'.
Proof.
  intros Hn Ha Hi (Hp & Hb & Hs & Hnb & Hav).
  rewrite exec_spine. change (spine df_body) with df_bspine. rewrite (exec_list_split 6), (df_bsig i r Hi Hp Hb).
  rewrite (df_ans (firstn w (skipn i p)) av a nb _ Hn Ha) by (lk; assumption || reflexivity).
  eexists. split; [reflexivity|]. fold (df_step nb a i). repeat split; lk; assumption || reflexivity.
Qed.

Lemma df_loop (nb : Z) : nb <> 0 -> forall (js : list nat) j (av : value) (a : Q) r, numv av a ->
  (forall i, In i (j :: js) -> (i + w <= N)%nat) -> df_inv nb av r ->
  exists r', MiniPy.run_loop prim1 0 "i" df_body (map (fun i => VInt (0 + Z.of_nat i)) (j :: js)) r = ONorm r' /\
    lookup "ans" r' = VQ (fold_left (df_step nb) (j :: js) a).
Proof.
  intros Hn. induction js as [|j' js IH]; intros j av a r Ha Hin Inv.
  all: destruct (df_iter nb j av a r Hn Ha (Hin j (or_introl eq_refl)) Inv) as [r1 [E1 Inv1]].
  all: rewrite map_cons, run_loop_cons; change (0 + Z.of_nat j) with (Z.of_nat j); rewrite E1.
  - exists r1. split; [reflexivity | apply Inv1].
  - apply (IH j' _ _ r1 (NQ _)); [|exact Inv1]. intros i Hi. apply Hin. right. exact Hi.
Qed.

(* deltaForm(w) on EVERY charge pattern, w >= 1: the model's value (the int 0 when there is no full window) *)
Theorem deltaForm_tie r : lookup "self.len" r = VInt (len p) -> lookup "self.chargePattern" r = VList (map VInt p) -> lookup "bloblen" r = VN w ->
  exec g_deltaForm r = ORet (if (w <=? N)%nat then VQ (m_deltaForm w p) else VInt 0).
Proof.
  intros Hl Hp Hb. rewrite exec_spine. change (spine g_deltaForm) with df_spine. rewrite df_parts.
  rewrite (step_assign_list _ (ECall "sigma" []) _ _ _ sigma_call (numv_ok _ _ sigma_num)).
  set (nb := len p - Z.of_nat w + 1).
  rewrite (step_assign_list _ _ _ _ (VInt nb)); [| | reflexivity].
  2:{ apply eval_add_int; [| reflexivity]. apply eval_sub_int; rewrite eval_var; lk; assumption. }
  rewrite (step_const_list _ (VInt 0)) by reflexivity.
  set (r2 := set "ans" _ _).
  rewrite exec_list_cons, exec_for, (eval_range _ _ _ 0 nb), Z.sub_0_r; [| reflexivity | rewrite eval_var; unfold r2; lk; reflexivity].
  cbn [elements]. unfold m_deltaForm. fold nb. unfold len in nb.
  destruct (Nat.leb_spec w N) as [Hle|Hgt].
  - assert (Hnb : nb <> 0) by (unfold nb; lia).
    destruct (Z.to_nat nb) as [|k] eqn:Ek; [lia|]. cbn [seq].
    destruct (df_loop nb Hnb (seq 1 k) 0%nat (VInt 0) 0%Q r2 (NI 0)) as [r3 [E3 H3]].
    { intros i Hi. apply (in_seq (S k) 0) in Hi. unfold nb in Ek. lia. }
    { unfold r2. repeat split; lk; assumption || reflexivity. }
    rewrite E3. exact (step_return_list (EVar "ans") [] r3 _ H3 eq_refl).
  - replace (Z.to_nat nb) with 0%nat by (unfold nb; lia). cbn [seq map MiniPy.run_loop].
    apply step_return_list; [rewrite eval_var; unfold r2; lk; reflexivity | reflexivity].
Qed.
End DeltaTie.
Print Assumptions deltaForm_tie.
Print Assumptions sigma_tie.

Section DeltaKappa.
Variable p : list Z.
Variable dmv : value.                (* self.deltaMax(): an ORACLE (tied separately: deltamax_tie) *)
Local Notation N := (List.length p).

(* self.deltaForm(w) is interpreted by RUNNING the translated deltaForm *)
Definition prim2 (name : string) (args : list value) : value :=
  if String.eqb name "deltaForm" then
    match args with
    | [b] => match MiniPy.exec (prim1 p) 0 g_deltaForm
                     [("self.len"%string, VInt (len p)); ("self.chargePattern"%string, VList (map VInt p)); ("bloblen"%string, b)] with
             | ORet v => v | ORaise => VExc | _ => VErr end
    | _ => VErr
    end
  else prim1 p name args.

Definition df_val (w : nat) : value := if (w <=? N)%nat then VQ (m_deltaForm w p) else VInt 0.
Lemma df_call (w : nat) : (1 <= w)%nat -> prim2 "deltaForm" [VN w] = df_val w.
Proof.
  intros Hw. unfold prim2. cbn [String.eqb Ascii.eqb Bool.eqb].
  now rewrite (deltaForm_tie p w Hw [("self.len"%string, VInt (len p)); ("self.chargePattern"%string, VList (map VInt p)); ("bloblen"%string, VN w)] eq_refl eq_refl eq_refl).
Qed.
Lemma m_deltaForm_short (w : nat) : (N < w)%nat -> m_deltaForm w p = 0%Q.
Proof. intros H. unfold m_deltaForm, len. replace (Z.to_nat (Z.of_nat N - Z.of_nat w + 1)) with 0%nat by lia. reflexivity. Qed.
Lemma df_num (w : nat) : numv (df_val w) (m_deltaForm w p).
Proof.
  unfold df_val. destruct (Nat.leb_spec w N) as [H|H]; [apply NQ|]. rewrite (m_deltaForm_short w H). apply (NI 0).
Qed.

(* delta on EVERY charge pattern: the model's value *)
Theorem delta_tie r : MiniPy.exec prim2 0 g_delta r = ORet (VQ (m_delta p)).
Proof.
  unfold g_delta. apply exec_return_ok; [|reflexivity].
  assert (E5 : MiniPy.eval prim2 (ECall "deltaForm" [EConst (VInt 5)]) r = df_val 5).
  { rewrite (eval_call1 _ _ _ (VInt 5) (eval_const _ _) eq_refl). apply (df_call 5). lia. }
  assert (E6 : MiniPy.eval prim2 (ECall "deltaForm" [EConst (VInt 6)]) r = df_val 6).
  { rewrite (eval_call1 _ _ _ (VInt 6) (eval_const _ _) eq_refl). apply (df_call 6). lia. }
  destruct (eval_add_num _ _ r _ _ _ _ E5 E6 (df_num 5) (df_num 6)) as [sv [sq [Es [Ns Qs]]]].
  rewrite (eval_qdiv _ _ _ _ _ _ _ (fun _ => eq_refl) Es (eval_const _ _) Ns (NI 2) eq_refl). unfold m_delta. f_equal. apply Qred_complete. now rewrite Qs.
Qed.

(* self.delta() is interpreted by RUNNING the translated delta; self.deltaMax() is the oracle *)
Definition prim3 (name : string) (args : list value) : value :=
  if String.eqb name "delta" then
    match args with [] => match MiniPy.exec prim2 0 g_delta [] with ORet v => v | ORaise => VExc | _ => VErr end | _ => VErr end
  else if String.eqb name "deltaMax" then match args with [] => dmv | _ => VErr end
  else prim2 name args.

(* kappa on EVERY charge pattern, WHATEVER rational deltaMax returns: -1 when deltaMax is 0, else delta / deltaMax, replaced
   by 1 exactly when it lies strictly between 1 and 1.1 *)
Theorem kappa_tie (dm : Q) r : dmv = VQ dm ->
  MiniPy.exec prim3 0 g_kappa r =
  ORet (if Qeq_bool dm 0 then VInt (-1)
        else let k := Qred (m_delta p / dm) in if Qltb 1 k && Qltb k (11 # 10) then VQ 1 else VQ k).
Proof.
  intros Hdm. unfold g_kappa.
  assert (Em : MiniPy.eval prim3 (ECall "deltaMax" []) r = VQ dm) by exact Hdm.
  rewrite (exec_if_truthy _ _ _ _ (Qeq_bool dm 0)) by (rewrite (eval_eq_val _ _ _ _ (VInt 0) Em); reflexivity).
  destruct (Qeq_bool dm 0) eqn:Ez; [reflexivity|].
  assert (Ed : MiniPy.eval prim3 (ECall "delta" []) r = VQ (m_delta p)) by (change (prim3 "delta" [] = VQ (m_delta p)); unfold prim3; cbn [String.eqb Ascii.eqb Bool.eqb]; now rewrite delta_tie).
  set (k := Qred (m_delta p / dm)).
  assert (Ek : MiniPy.eval prim3 (ECall "qdiv" [ECall "delta" []; ECall "deltaMax" []]) r = VQ k).
  { exact (eval_qdiv _ _ _ _ _ _ _ (fun _ => eq_refl) Ed Em (NQ _) (NQ dm) Ez). }
  rewrite (step_assign _ _ _ _ _ Ek eq_refl), (exec_if_truthy _ _ _ _ (Qltb 1 k && Qltb k (11 # 10))).
  2:{ rewrite (eval_and_bool _ _ _ (Qltb 1 k) (Qltb k (11 # 10))); [reflexivity | |].
      - apply eval_gt_Q; [apply lookup_set_eq | reflexivity].
      - apply eval_lt_Q; [apply lookup_set_eq | reflexivity]. }
  cbv zeta. destruct (Qltb 1 k && Qltb k (11 # 10)); [reflexivity|].
  apply exec_return_ok; [apply lookup_set_eq | reflexivity].
Qed.

(* with the model's delta-max, the returned number is the model's kappa *)
Theorem kappa_is_model r : dmv = VQ (m_dmax p) ->
  exists v, MiniPy.exec prim3 0 g_kappa r = ORet v /\ as_Q v = Some (m_kappa p).
Proof.
  intros Hdm. rewrite (kappa_tie (m_dmax p) r Hdm). unfold m_kappa. cbv zeta.
  destruct (Qeq_bool (m_dmax p) 0); [eexists; split; reflexivity|].
  rewrite !Qltb_dec. destruct (Qlt_le_dec 1 _); [destruct (Qlt_le_dec _ (11 # 10))|]; eexists; split; reflexivity.
Qed.
End DeltaKappa.
Print Assumptions delta_tie.
Print Assumptions kappa_tie.
Print Assumptions kappa_is_model.

Example kappa_runs : let p := [1; 1; -1; 0; -1; 1; 0; -1; 1; -1]%Z in
  MiniPy.exec (prim3 p (VQ (1 # 5))) 0 g_kappa [] = ORet (VQ (Qred (m_delta p / (1 # 5)))) /\
  MiniPy.exec (prim3 p (VQ 0)) 0 g_kappa [] = ORet (VInt (-1)) /\
  MiniPy.exec (prim2 p) 0 g_delta [] = ORet (VQ (m_delta p)) /\ (0 < m_delta p)%Q.
Proof. repeat split; vm_compute; reflexivity. Qed.

(* the public getters (SequenceParameters) are exactly a return of the backend call with their own arguments *)
Lemma fw_get_kappa : g_fw_get_kappa = SReturn (ECall "SeqObj.kappa"%string []). Proof. reflexivity. Qed.
Lemma fw_get_delta : g_fw_get_delta = SReturn (ECall "SeqObj.delta"%string []). Proof. reflexivity. Qed.
