(* Tie (C14) — SEMANTIC: the body of SequenceFileParser.__validSeq, translated from the working tree into a Core.MiniPy
   term on every run (Gen/GMiniPy.v, tools/py2coq/g_minipy.py), is run by the MiniPy interpreter and proved equal to the
   model's valid_seq for EVERY string of 8-bit characters: the loop body, run on one abstract character, is the decision
   tree of its four tests; each test is the model's (the digit test by a sweep of the 256 characters); induction on the
   string does the loop. *)
From Coq Require Import List String Ascii Bool.
From LC Require Import Core.Residue Core.MiniPy Core.MiniPyData Core.MiniPyExec Model.Parser Gen.GMiniPy.
Import ListNotations.

Local Notation exec := (MiniPy.exec noprim 0).
Local Notation run_loop := (MiniPy.run_loop noprim 0).

Lemma digit_char c : is_substr [c] (list_ascii_of_string "1234567890") = is_digit c.
Proof. apply eqb_prop. revert c. apply ascii_sweep. vm_compute. reflexivity. Qed.

(* a parsed token: a residue letter or the stop sign *)
Definition tokchar (t : option aa) : ascii := match t with Some a => aa_char a | None => "*"%char end.

(* the environment at the loop head: parameters, then the assigned names *)
Definition vs_env (sequence : list ascii) (acc : list ascii) (iv : value) : env :=
  [("self"%string, VNone); ("sequence"%string, VStr sequence); ("parsed_seq"%string, VStr acc); ("i"%string, iv)].

Definition vs_body : stmt := for_body (stmt_at 1 g_validSeq).

Lemma vs_body_step sq acc iv c :
  exec vs_body (set "i" (VStr [c]) (vs_env sq acc iv)) =
  match aa_of_char c with
  | Some _ => ONorm (vs_env sq (acc ++ [c]) (VStr [c]))
  | None => if Ascii.eqb c " " then OCont (vs_env sq acc (VStr [c]))
            else if Ascii.eqb c "*" then OCont (vs_env sq (acc ++ [c]) (VStr [c]))
            else if is_digit c then OCont (vs_env sq acc (VStr [c]))
            else ORaise
  end.
Proof.
  etransitivity.
  { lazy beta iota zeta delta [vs_body for_body stmt_at nth spine g_validSeq MiniPy.exec MiniPy.eval lookup set String.eqb Ascii.eqb
                               Bool.eqb truthy v_in v_not bad2 vs_env list_ascii_of_string].
    reflexivity. }
  rewrite res_letter, !veqb_char, digit_char. destruct (aa_of_char c); [reflexivity|]. cbn [negb].
  destruct (Ascii.eqb c " "); [reflexivity|]. destruct (Ascii.eqb c "*"); [reflexivity|]. destruct (is_digit c); reflexivity.
Qed.

Lemma vs_loop sq cs : forall acc iv,
  match valid_seq cs with
  | Some t => exists iv', run_loop "i" vs_body (chars_val cs) (vs_env sq acc iv) = ONorm (vs_env sq (acc ++ map tokchar t) iv')
  | None => run_loop "i" vs_body (chars_val cs) (vs_env sq acc iv) = ORaise
  end.
Proof.
  induction cs as [|c cs IH]; intros acc iv; cbn [valid_seq map MiniPy.run_loop].
  - exists iv. now rewrite app_nil_r.
  - rewrite vs_body_step. destruct (aa_of_char c) as [a|] eqn:Ea.
    + specialize (IH (acc ++ [c]) (VStr [c])). destruct (valid_seq cs) as [t|]; [|exact IH].
      cbn [map tokchar]. rewrite (aa_of_char_some c a Ea). rewrite <- app_assoc in IH. exact IH.
    + destruct (Ascii.eqb c " "); [apply IH|]. destruct (Ascii.eqb_spec c "*") as [->|_].
      * specialize (IH (acc ++ ["*"%char]) (VStr ["*"%char])). destruct (valid_seq cs) as [t|]; [|exact IH].
        rewrite <- app_assoc in IH. exact IH.
      * destruct (is_digit c); [apply IH | reflexivity].
Qed.

(* the generated term run on ANY character string = the model's valid_seq *)
Theorem validSeq_tie cs :
  exec g_validSeq (vs_env cs [] VNone) =
  match valid_seq cs with Some t => ORet (VStr (map tokchar t)) | None => ORaise end.
Proof.
  erewrite (exec_split_for _ _ _ _ vs_body _ _ (vs_env cs [] VNone) (chars_val cs)) by reflexivity.
  pose proof (vs_loop cs cs [] VNone) as HL. destruct (valid_seq cs) as [t|].
  - destruct HL as [iv' ->]. reflexivity.
  - rewrite HL. reflexivity.
Qed.
Print Assumptions validSeq_tie.

