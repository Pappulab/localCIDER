(* Tie (C16) — SEMANTIC: Sequence.calculateKappaDistOfPhosphoStates (behind get_full_phosphostatus_kappa_distribution),
   translated from the working tree on every run into a Core.MiniPy term: the loop over itertools.product("01",
   repeat=k), the inner loop that puts E at the sites whose digit is 1, the FRESH Sequence built from that string, the
   seven-component entry.  itertools.product is the primitive that enumerates the digit tuples in binary counting order,
   first site most significant (Model.Phospho.bitsets); the six parameter methods of the fresh object are ORACLES (any
   functions of its string).  For EVERY sequence and in-range site list the entries are, in order, those of
   Model.Phospho.states: entry j is computed on the sequence with E at exactly the sites chosen by the j-th digit tuple. *)
From Coq Require Import List String Ascii QArith Lia.
From LC Require Import Core.Residue Core.MiniPy Core.MiniPyData Core.MiniPyExec Model.Phospho Proofs.Phospho Gen.GMiniPy.
Import ListNotations.
Local Open Scope Z_scope.

Section PhosDist.
Variable s : list aa.
Variable sites : list nat.
Hypothesis sites_ok : forall i, In i sites -> (i < List.length s)%nat.
Variable meth : string -> list ascii -> value.       (* .kappa() etc. of a fresh Sequence(string): ANY functions *)
Hypothesis meth_ok : forall m t, is_bad (meth m t) = false.

Definition bit_val (b : bool) : value := VStr [if b then "1"%char else "0"%char].
Definition bits_val (bs : list bool) : value := VList (map bit_val bs).

Definition pd_prim (name : string) (args : list value) : value :=
  if String.eqb name "calculateNumberDifferentPhosphoStates" then VInt 0
  else if String.eqb name "itertools.product" then
    match args with [VStr ["0"%char; "1"%char]; VInt k] => VList (map bits_val (bitsets (Z.to_nat k))) | _ => VErr end
  else if String.eqb name "Sequence" then match args with [VStr t] => VStr t | _ => VErr end
  else match args with [VStr t] => meth name t | _ => VErr end.
Local Notation exec := (MiniPy.exec pd_prim 0).
Local Notation eval := (MiniPy.eval pd_prim).
Local Notation run_loop := (MiniPy.run_loop pd_prim 0).

Local Notation marked := (Proofs.Phospho.marked s).

Definition pd_body : stmt := Eval vm_compute in for_body (stmt_at 3 g_phosdist).
Definition pd_inner : stmt := Eval vm_compute in for_body (stmt_at 2 pd_body).
Definition pd_entry : stmt := Eval vm_compute in stmt_at 5 pd_body.
Lemma pd_parts : spine g_phosdist =
  [SAssign "num_calcs" (ECall "calculateNumberDifferentPhosphoStates" []); SAssign "phosphokappa" (EListLit []); SAssign "count" (EConst (VInt 0));
   SFor "phosphostatus" (ECall "itertools.product" [EConst (VStr ["0"%char; "1"%char]); ELen (EVar "self.phosphosites")]) pd_body;
   SReturn (EVar "phosphokappa")].
Proof. reflexivity. Qed.
Lemma pd_bparts : spine pd_body =
  [SAssign "newseq" (EListOf (EVar "self.seq")); SAssign "indx" (EConst (VInt 0)); SFor "i" (EVar "phosphostatus") pd_inner;
   SAssign "newseq" (EJoin [] (EVar "newseq")); SAssign "newseqObj" (ECall "Sequence" [EVar "newseq"]);
   pd_entry; SAssign "count" (EAdd (EVar "count") (EConst (VInt 1)))].
Proof. reflexivity. Qed.

Definition sites_val : value := VList (map (fun i => VN i) sites).

Lemma pd_inner_step b pre x rest done r : sites = pre ++ x :: rest ->
  lookup "self.phosphosites" r = sites_val -> lookup "newseq" r = VList (marked done) -> lookup "indx" r = VN (List.length pre) ->
  exists r', exec pd_inner (set "i" (bit_val b) r) = ONorm r' /\
    lookup "newseq" r' = VList (marked (done ++ (if b then [x] else []))) /\ lookup "indx" r' = VN (List.length (pre ++ [x])) /\
    same_except ["newseq"; "indx"; "i"]%string r r'.
Proof.
  intros Hs Hps Hns Hix. unfold pd_inner.
  rewrite step_if with (t := b) by (lazy beta iota zeta delta [MiniPy.eval]; rewrite lookup_set_eq; destruct b; reflexivity).
  assert (Hi : forall r', lookup "indx" r' = VN (List.length pre) -> eval (EAdd (EVar "indx") (EConst (VInt 1))) r' = VN (List.length (pre ++ [x]))).
  { intros r' H. rewrite app_length, Nat2Z.inj_add. apply eval_add_int; [exact H | reflexivity]. }
  destruct b.
  - rewrite step_norm with (r' := set "newseq" (VList (marked (done ++ [x]))) (set "i" (bit_val true) r)).
    2:{ apply exec_setitem_list with (l := marked done) (i := Z.of_nat x) (v := VStr ["E"%char]); [lk; exact Hns | | reflexivity | reflexivity |].
        - apply eval_index_list with (l := ints sites) (k := Z.of_nat (List.length pre)); [var Hps | var Hix |].
          rewrite Hs. apply (index_val_map_app_mid (fun i => VN i)).
        - apply list_set_marked, sites_ok. rewrite Hs. apply in_or_app. right. now left. }
    rewrite exec_assign_ok with (v := VN (List.length (pre ++ [x]))) by (reflexivity || (apply Hi; lk; exact Hix)).
    eexists. split; [reflexivity|]. lk. repeat split.
    do 3 (apply same_except_step; [cbn [In]; tauto|]). apply same_except_refl.
  - rewrite step_skip, exec_assign_ok with (v := VN (List.length (pre ++ [x]))) by (reflexivity || (apply Hi; lk; exact Hix)).
    eexists. split; [reflexivity|]. lk. rewrite app_nil_r. repeat split; [exact Hns|].
    do 2 (apply same_except_step; [cbn [In]; tauto|]). apply same_except_refl.
Qed.

Lemma pd_inner_run : forall (bs : list bool) (pre rest : list nat) done r, sites = pre ++ rest -> (List.length bs <= List.length rest)%nat ->
  lookup "self.phosphosites" r = sites_val -> lookup "newseq" r = VList (marked done) -> lookup "indx" r = VN (List.length pre) ->
  exists r', run_loop "i" pd_inner (map bit_val bs) r = ONorm r' /\
    lookup "newseq" r' = VList (marked (done ++ chosen rest bs)) /\ same_except ["newseq"; "indx"; "i"]%string r r'.
Proof.
  induction bs as [|b bs IH]; intros pre rest done r Hs Hlen Hps Hns Hix; cbn [map].
  - exists r. replace (chosen rest []) with (@nil nat) by (destruct rest; reflexivity). rewrite app_nil_r.
    split; [reflexivity|]. split; [exact Hns | apply same_except_refl].
  - destruct rest as [|x rest]; [cbn [List.length] in Hlen; lia|].
    destruct (pd_inner_step b pre x rest done r Hs Hps Hns Hix) as (r1 & E1 & Hn1 & Hi1 & Hf1). rewrite run_loop_cons, E1.
    destruct (IH (pre ++ [x]) rest (done ++ (if b then [x] else [])) r1) as (r2 & E2 & Hn2 & Hf2); [rewrite <- app_assoc; exact Hs | cbn [List.length] in Hlen; lia | rewrite (Hf1 "self.phosphosites"%string eq_refl); exact Hps | exact Hn1 | exact Hi1 |].
    exists r2. split; [exact E2|]. split; [|exact (same_except_trans _ _ _ _ Hf1 Hf2)].
    rewrite Hn2, <- app_assoc. unfold chosen. cbn [combine filter snd]. destruct b; reflexivity.
Qed.

Definition entry_val (bs : list bool) : value :=
  let t := map aa_char (subst_at s (chosen sites bs)) in
  VList [meth ".kappa" t; meth ".Fplus" t; meth ".Fminus" t; meth ".FCR" t; meth ".NCPR" t; meth ".meanHydropathy" t; bits_val bs].

Lemma pd_body_run (bs : list bool) (acc : list value) (cnt : Z) r : List.length bs = List.length sites ->
  lookup "self.seq" r = VStr (map aa_char s) -> lookup "self.phosphosites" r = sites_val -> lookup "phosphostatus" r = bits_val bs ->
  lookup "phosphokappa" r = VList acc -> lookup "count" r = VInt cnt ->
  exists r', exec pd_body r = ONorm r' /\ lookup "phosphokappa" r' = VList (acc ++ [entry_val bs]) /\ lookup "count" r' = VInt (cnt + 1) /\
    lookup "self.seq" r' = VStr (map aa_char s) /\ lookup "self.phosphosites" r' = sites_val.
Proof.
  intros Hlen Hs Hps Hst Hacc Hcnt. rewrite exec_spine, pd_bparts.
  rewrite step_assign_list with (v := VList (marked []))
    by (reflexivity || (rewrite marked_chars, phosphoseq_no_sites; apply eval_listof_str; rewrite eval_var; exact Hs)).
  rewrite step_const_list by reflexivity.
  destruct (pd_inner_run bs [] sites [] (set "indx" (VInt 0) (set "newseq" (VList (marked [])) r)) eq_refl) as (r2 & E2 & Hn2 & Hf2);
    [lia | lk; exact Hps | lk; reflexivity | lk; reflexivity |].
  rewrite step_norm_list with (r' := r2) by (rewrite exec_for_list with (l := map bit_val bs) by (var Hst); exact E2).
  cbn [app] in Hn2. set (t := map aa_char (subst_at s (chosen sites bs))).
  assert (L2 : same_except ["newseq"; "indx"; "i"]%string r r2).
  { refine (same_except_trans _ _ _ _ _ Hf2). do 2 (apply same_except_step; [cbn [In]; tauto|]). apply same_except_refl. }
  rewrite step_assign_list with (v := VStr t)
    by (reflexivity || (apply eval_join_list with (l := marked (chosen sites bs)); [rewrite eval_var; exact Hn2 | rewrite marked_chars; apply join_chars])).
  assert (Ecall : forall m r', lookup "newseqObj" r' = VStr t -> pd_prim m [VStr t] = meth m t ->
                  eval (ECall m [EVar "newseqObj"]) r' = meth m t /\ is_bad (meth m t) = false).
  { intros m r' Hl Hm. split; [|apply meth_ok]. rewrite <- Hm. apply eval_call1; [exact Hl | reflexivity]. }
  rewrite step_assign_list with (v := VStr t); [|rewrite eval_call1 with (v := VStr t) by (reflexivity || (rewrite eval_var; lk; reflexivity)); reflexivity|reflexivity].
  unfold pd_entry. rewrite step_append_list with (l := acc) (v := entry_val bs); [|lk; rewrite L2 by reflexivity; exact Hacc| |reflexivity].
  2:{ apply eval_listlit_all. repeat (apply Forall2_cons; [apply Ecall; [lk; reflexivity | reflexivity]|]).
      apply Forall2_cons; [|apply Forall2_nil]. split; [|reflexivity]. rewrite eval_var. lk. rewrite L2 by reflexivity. exact Hst. }
  rewrite step_assign_list with (v := VInt (cnt + 1)) by (reflexivity || (apply eval_add_int; [rewrite eval_var; lk; rewrite L2 by reflexivity; exact Hcnt | reflexivity])).
  eexists. split; [reflexivity|]. lk. rewrite !L2 by reflexivity. repeat split; assumption.
Qed.

Lemma pd_outer : forall (L : list (list bool)) (acc : list value) (cnt : Z) r, (forall bs, In bs L -> List.length bs = List.length sites) ->
  lookup "self.seq" r = VStr (map aa_char s) -> lookup "self.phosphosites" r = sites_val -> lookup "phosphokappa" r = VList acc -> lookup "count" r = VInt cnt ->
  exists r', run_loop "phosphostatus" pd_body (map bits_val L) r = ONorm r' /\ lookup "phosphokappa" r' = VList (acc ++ map entry_val L).
Proof.
  induction L as [|bs L IH]; intros acc cnt r HL Hs Hps Hacc Hcnt; cbn [map].
  - exists r. now rewrite app_nil_r.
  - destruct (pd_body_run bs acc cnt (set "phosphostatus" (bits_val bs) r)) as (r1 & E1 & Ha1 & Hc1 & Hs1 & Hp1); try (lk; assumption || reflexivity).
    { apply HL. now left. }
    rewrite run_loop_cons, E1. destruct (IH (acc ++ [entry_val bs]) (cnt + 1) r1) as [r2 [E2 Ha2]]; try assumption.
    { intros b Hb. apply HL. now right. }
    exists r2. split; [exact E2|]. now rewrite Ha2, <- app_assoc.
Qed.

Lemma bitsets_len k : forall bs, In bs (bitsets k) -> List.length bs = k.
Proof.
  induction k as [|k IH]; intros bs H; cbn [bitsets] in H; [destruct H as [<-|[]]; reflexivity|].
  apply in_app_or in H. destruct H as [H|H]; apply in_map_iff in H; destruct H as [b [<- Hb]]; cbn [List.length]; f_equal; now apply IH.
Qed.

(* the distribution on EVERY sequence and in-range site list, WHATEVER the parameter methods of the fresh objects return:
   entry j belongs to the j-th digit tuple of the binary counting order (first site most significant) and is computed on
   the sequence with E at exactly the sites whose digit is 1 — the states of Model.Phospho.states, in order *)
Theorem phosdist_tie r : lookup "self.seq" r = VStr (map aa_char s) -> lookup "self.phosphosites" r = sites_val ->
  exec g_phosdist r = ORet (VList (map entry_val (bitsets (List.length sites)))).
Proof.
  intros Hs Hps. rewrite exec_spine, pd_parts.
  rewrite step_assign_list with (v := VInt 0), step_assign_list with (v := VList []), step_const_list by reflexivity.
  destruct (pd_outer (bitsets (List.length sites)) [] 0 (set "count" (VInt 0) (set "phosphokappa" (VList []) (set "num_calcs" (VInt 0) r)))) as [r4 [E4 Ha4]];
    try (lk; assumption || reflexivity).
  { apply bitsets_len. }
  rewrite step_norm_list with (r' := r4).
  2:{ rewrite exec_for_list with (l := map bits_val (bitsets (List.length sites))); [exact E4|].
      rewrite eval_call2 with (v := VStr ["0"%char; "1"%char]) (w := VN (List.length sites)); [| reflexivity | | reflexivity | reflexivity].
      - unfold pd_prim. cbn [String.eqb Ascii.eqb Bool.eqb]. now rewrite Nat2Z.id.
      - rewrite <- (map_length (fun i => VN i) sites). apply eval_len_list. var Hps. }
  apply step_return_list; [exact Ha4 | reflexivity].
Qed.

(* the sequences the entries are computed on are the model's states *)
Lemma entries_are_states : map (fun bs => (bs, subst_at s (chosen sites bs))) (bitsets (List.length sites)) = states {| pseq := s; psites := sites |}.
Proof. reflexivity. Qed.
End PhosDist.
Print Assumptions phosdist_tie.

Definition ex_meth (m : string) (t : list ascii) : value := VStr (list_ascii_of_string m ++ t).
Example phosdist_runs :
  MiniPy.exec (pd_prim ex_meth) 0 g_phosdist [("self.seq"%string, VStr (map aa_char [Ser; Gly; Thr; Lys])); ("self.phosphosites"%string, VList [VInt 0; VInt 2])] =
  ORet (VList (map (entry_val [Ser; Gly; Thr; Lys] [0; 2]%nat ex_meth) (bitsets 2)))
  /\ map (fun bs => subst_at [Ser; Gly; Thr; Lys] (chosen [0; 2]%nat bs)) (bitsets 2) =
     [[Ser; Gly; Thr; Lys]; [Ser; Gly; Glu; Lys]; [Glu; Gly; Thr; Lys]; [Glu; Gly; Glu; Lys]].
Proof. split; vm_compute; reflexivity. Qed.
