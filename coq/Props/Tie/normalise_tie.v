(* Tie (C13): the constructor / validateSequence statement shapes the model mirrors are present in
   the source (fail-closed fingerprints), and the residue alphabet is the 20 letters. *)
From Coq Require Import List.
From LC Require Import Core.Residue Gen.GParams Gen.GTables.

Lemma constructor_shape_tie : g_constructor_shape_ok = true.
Proof. reflexivity. Qed.

Lemma alphabet_tie :
  forallb (fun a => existsb (fun p => aa_eqb (fst p) a) GTables.one_to_three) all20 = true /\
  List.length GTables.one_to_three = 20%nat.
Proof. vm_compute. split; reflexivity. Qed.
