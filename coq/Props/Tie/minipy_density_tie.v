(* Tie (C10) — SEMANTIC: Sequence.linearDenistyOfAAs (the profile behind linearCompositions), translated from the working tree
   on every run into a Core.MiniPy term: the guard, the flank arithmetic, the loop that marks every residue 1.0 / 0.0 by
   membership in the target list, the loop over the windows (sum of the window / window size) and the two rows.  For
   EVERY sequence, target list and window >= 1: rejection exactly when the window is longer than the sequence, else
   positions 1..N and flank_start zeros, one value per full window = (number of target residues in THAT window) / w,
   flank_end zeros, with the flanks of Model.Windows.flanks. *)
From Coq Require Import List String Ascii QArith.
From LC Require Import Core.Residue Core.Lists Core.QTools Core.MiniPy Core.MiniPyData Core.MiniPyExec Core.MiniPyLin Model.Windows Gen.GMiniPy.
Import ListNotations.
Local Open Scope Z_scope.

Section Density.
Variable s : list aa.                 (* self.seq *)
Variable w : nat.                     (* bloblen *)
Variable target : list aa.           (* targetAAs, as one-letter strings *)
Definition kd (a : aa) : Q := if existsb (aa_eqb a) target then 1 # 1 else 0 # 1.
Definition target_val : value := VList (map (fun a => VStr [aa_char a]) target).
Local Notation N := (List.length s).
Local Notation cs := (map aa_char s).

Fixpoint sum_vals (l : list value) : option Q :=
  match l with [] => Some 0%Q | v :: l' => match as_Q v, sum_vals l' with Some x, Some y => Some (Qred (x + y)) | _, _ => None end end.

Definition de_prim (name : string) (args : list value) : value :=
  if String.eqb name "__check_window_to_length" then
    match args with
    | [b] => match MiniPy.exec noprim 0 g_check_window [("self.seq"%string, VStr cs); ("bloblen"%string, b)] with
             | ONorm _ => VNone | ORaise => VExc | _ => VErr end
    | _ => VErr
    end
  else if String.eqb name "int_div" then
    match args with [VInt a; VInt b] => if b =? 0 then VExc else VInt (Z.quot a b) | _ => VErr end
  else if String.eqb name "np.vstack" then
    match args with [VList [a; b]] => VList [a; b] | _ => VErr end
  else if String.eqb name "sum" then match args with [VList l] => match sum_vals l with Some q => VQ q | None => VErr end | _ => VErr end
  else if String.eqb name "qdiv" then
    match args with
    | [a; b] => match as_Q a, as_Q b with
                | Some x, Some y => if Qeq_bool y 0 then VExc else VQ (Qred (x / y))
                | _, _ => VErr
                end
    | _ => VErr
    end
  else VErr.
Local Notation exec := (MiniPy.exec de_prim 0).
Local Notation eval := (MiniPy.eval de_prim).

Definition de_spine : list stmt := Eval vm_compute in spine g_linDensity.
Definition de_chain_body : stmt := Eval vm_compute in match nth 6 de_spine SSkip with SFor _ _ b => b | _ => SSkip end.
Definition de_body : stmt := Eval vm_compute in match nth 7 de_spine SSkip with SFor _ _ b => b | _ => SSkip end.
Lemma de_parts : de_spine =
  lin_head "blob_density" ++
  [SAssign "target_seq" (EListLit []);
   SFor "res" (EVar "self.seq") de_chain_body;
   SFor "i" (ERange (EConst (VInt 0)) (EVar "nblobs")) de_body;
   lin_rows "blob_density"].
Proof. reflexivity. Qed.

Definition kdv (l : list aa) : list value := map (fun a => VQ (kd a)) l.

(* one residue: 1.0 or 0.0 by membership in the target list *)
Lemma chain_step a acc r : lookup "targetAAs" r = target_val -> lookup "target_seq" r = VList acc -> lookup "res" r = kv a ->
  exec de_chain_body r = ONorm (set "target_seq" (VList (acc ++ [VQ (kd a)])) r).
Proof.
  intros Hk Hc Hx. unfold de_chain_body.
  assert (T : eval (EIn (EVar "res") (EVar "targetAAs")) r = VBool (existsb (aa_eqb a) target)).
  { rewrite eval_in, !eval_var, Hx, Hk. apply v_in_kv. }
  rewrite (exec_if_bool _ _ _ _ _ T). unfold kd.
  destruct (existsb (aa_eqb a) target); apply exec_append_ok; assumption || reflexivity.
Qed.

Definition wq : Q := inject_Z (Z.of_nat w).
Definition val_h (b : list aa) : value := match sum_vals (kdv b) with Some q => VQ (Qred (q / wq)) | None => VErr end.

(* one window: de_body is the window-mean body of Core.MiniPyLin, sum and qdiv in de_prim are the shared primitives, and val_h is
   its mean_val, all by computation *)
Lemma de_body_run i (done rest : list value) x r : (i + w <= N)%nat -> (1 <= w)%nat -> List.length done = i ->
  lookup "target_seq" r = VList (kdv s) -> lookup "bloblen" r = VN w -> lookup "i" r = VN i -> lookup "blob_density" r = VList (done ++ x :: rest) ->
  exec de_body r = ONorm (set "blob_density" (VList (done ++ val_h (blob w i s) :: rest)) (set "blob" (VList (blob w i (kdv s))) r)).
Proof. intros Hi Hw Hd. exact (mean_body_run de_prim (fun _ => eq_refl) (fun _ => eq_refl) kd "target_seq" "blob_density" s w i done rest x r Hi Hw Hd eq_refl). Qed.

(* the density profile on EVERY sequence, window >= 1 and target list *)
Theorem linDensity_tie r : (1 <= w)%nat -> lookup "self.len" r = VN N -> lookup "self.seq" r = VStr cs -> lookup "bloblen" r = VN w ->
  lookup "targetAAs" r = target_val ->
  exec g_linDensity r =
  if (N <? w)%nat then ORaise
  else ORet (VList [VList (map (fun j => VN j) (seq 1 N));
                    VList (repeat (VInt 0) (fst (flanks w N)) ++ map val_h (blobs w s) ++ repeat (VInt 0) (snd (flanks w N)))]).
Proof.
  intros Hw Hlen Hs Hb Htg. rewrite exec_spine. change (spine g_linDensity) with de_spine. rewrite de_parts.
  (* the first (fun _ => eq_refl) compares, by computation, what de_prim makes of a call of the guard — running the translated
     g_check_window of Gen.GMiniPy — with MiniPyLin.guard_call, which runs the hand-written window_guard: a change of the
     Python guard breaks the tie here.  The second (and the one given to lin_tail_run) read the int_div and np.vstack
     entries of de_prim off in the same way *)
  rewrite (lin_head_run de_prim cs N w (map_length _ _) (fun _ => eq_refl) (fun _ => eq_refl) _ _ r Hw Hlen Hb).
  destruct (Nat.ltb_spec N w) as [Hlt|Hge]; [reflexivity|].
  rewrite (step_assign_list "target_seq" (EListLit []) _ _ (VList []) eq_refl eq_refl).
  set (r6 := set "target_seq" (VList []) (lin_env N w "blob_density" r)).
  rewrite exec_list_cons, (exec_for_elems _ _ _ _ (map (fun a => kv a) s))
    by (rewrite eval_var; unfold r6, lin_env; lk; rewrite Hs; apply elements_seq_val).
  destruct (chain_run de_prim "res" "target_seq" "targetAAs" target_val de_chain_body (fun a => VQ (kd a)) eq_refl eq_refl eq_refl chain_step s [] r6)
    as [r7 [E7 [Hh7 Hf7]]]; [unfold r6, lin_env; lk; exact Htg | unfold r6; lk; reflexivity |].
  rewrite E7. cbn [app] in Hh7.
  rewrite (lin_tail_run de_prim N w (fun _ => eq_refl) "blob_density" "target_seq" (VList (kdv s)) de_body (fun i => val_h (blob w i s)) eq_refl eq_refl); try assumption.
  (* what the frame reads here is an argument or was set by the head, and the chain loop kept it *)
  3-8: rewrite Hf7 by reflexivity; unfold r6, lin_env; lk; assumption || reflexivity.
  - unfold blobs. now rewrite map_map.
  - intros i done rest x r0 Hi Hd Hh0 Hb0 Hi0 Hres. eexists. split; [apply (de_body_run i done rest x r0); assumption|]. lk. repeat split; reflexivity.
Qed.

(* the stored value is the model's window statistic for the table kd *)
Lemma val_h_model b : (1 <= w)%nat -> exists q, val_h b = VQ q /\ (q == sumQ (map kd b) / wQ w)%Q.
Proof. intros _. exact (mean_val_model kd w b). Qed.
End Density.
Print Assumptions linDensity_tie.

Example density_runs :
  MiniPy.exec (de_prim [Lys; Gly; Ala; Lys]) 0 g_linDensity
    [("self.len"%string, VInt 4); ("self.seq"%string, VStr (map aa_char [Lys; Gly; Ala; Lys])); ("bloblen"%string, VInt 2); ("targetAAs"%string, VList [VStr ["K"%char]; VStr ["A"%char]])] =
  ORet (VList [VList (map VInt [1; 2; 3; 4]); VList [VQ (1 # 2); VQ (1 # 2); VQ (1 # 1); VInt 0]]).
Proof. vm_compute. reflexivity. Qed.
