(* Tie (C20): the default palette extracted (and installed by __init__) from the source equal the model's
   (the rendering loop itself: minipy_html_tie.v). *)
From Coq Require Import List.
From LC Require Import Core.Residue Model.Html Gen.GSeq Gen.GTables.

Lemma init_palette_tie : g_init_installs_default_palette = true.
Proof. reflexivity. Qed.

Lemma default_palette_tie :
  forallb (fun a => match find (fun p => aa_eqb (fst p) a) GTables.default_palette with
                    | Some p => String.eqb (snd p) (Model.Html.default_palette a) | None => false end) all20 = true
  /\ List.length GTables.default_palette = 20%nat.
Proof. vm_compute. split; reflexivity. Qed.
