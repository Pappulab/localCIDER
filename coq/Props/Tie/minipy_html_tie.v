(* Tie (C20) — SEMANTIC: the body of Sequence.get_HTMLColorString, translated from the working tree into a Core.MiniPy term
   on every run (dictionary lookup, np.mod block tests, %-formatting), is proved equal to Model.Html.m_render for EVERY
   sequence and EVERY palette; the body of set_HTMLColorResiduePalette (two dictionary loops) is proved to raise exactly when
   Model.Html.set_palette rejects, and otherwise to install the colour map of the model's new palette, for EVERY
   dictionary of strings. *)
From Coq Require Import List String Ascii ZArith Bool Arith Lia.
From LC Require Import Core.Residue Core.MiniPy Core.MiniPyData Core.MiniPyExec Model.Html Proofs.Html Gen.GMiniPy.
Import ListNotations.
Local Open Scope Z_scope.
Local Notation exec := (MiniPy.exec noprim 0).
Local Notation run_loop := (MiniPy.run_loop noprim 0).
Local Notation eval := (MiniPy.eval noprim).

(* if c: x = x + lit, on an environment that binds x *)
Lemma step_append_if c x lit b r t acc : truthy (eval c r) = VBool t -> lookup x r = VStr acc -> set x (VStr acc) r = r ->
  exec (SSeq (SIf c (SAssign x (EAdd (EVar x) (EConst (VStr lit)))) SSkip) b) r =
  exec b (set x (VStr (if t then acc ++ lit else acc)%list) r).
Proof.
  intros Ht Hx Hr. rewrite (step_if _ _ _ _ _ _ Ht). destruct t.
  - apply step_assign; [|reflexivity]. apply eval_add_str; [exact Hx | reflexivity].
  - rewrite step_skip, Hr. reflexivity.
Qed.

(* the object's colour map as the code stores it: a dictionary from one-letter strings to colour names *)
Definition pal_dict (pal : palette) : value :=
  VDict (map (fun a => (VStr [aa_char a], VStr (la (pal a)))) all20).

Definition gh_env (s : list aa) (pal : palette) (acc cnt res col : value) : env :=
  [("self"%string, VNone); ("self.seq"%string, VStr (map aa_char s)); ("self.aminoAcidColorMap"%string, pal_dict pal);
   ("colorString"%string, acc); ("count"%string, cnt); ("residue"%string, res); ("color"%string, col)].

Definition gh_pre : list stmt := Eval vm_compute in match split_at_for g_get_html with Some (p, _, _) => p | None => [] end.
Definition gh_body : stmt := Eval vm_compute in match split_at_for g_get_html with Some (_, (_, _, b), _) => b | None => SSkip end.
Definition gh_rest : stmt := Eval vm_compute in match split_at_for g_get_html with Some (_, _, r) => r | None => SRaise end.
Lemma gh_split_eq : split_at_for g_get_html = Some (gh_pre, ("residue"%string, EVar "self.seq", gh_body), gh_rest).
Proof. vm_compute. reflexivity. Qed.

(* the step function of Model.Html.m_render *)
Definition m_step (pal : palette) (st : string * nat) (r : aa) : string * nat :=
  let '(str, count) := st in
  let str1 := if (count mod 10 =? 0)%nat then (str ++ " ")%string else str in
  let str2 := if (count mod 50 =? 0)%nat then (str1 ++ "<br>")%string else str1 in
  ((str2 ++ span (pal r) r)%string, S count).

(* count % k == 0 *)
Lemma count_test r n k : lookup "count" r = VN n -> (0 < k)%nat ->
  truthy (eval (EEq (EMod (EVar "count") (EConst (VN k))) (EConst (VInt 0))) r) = VBool (n mod k =? 0)%nat.
Proof.
  intros Hc Hk. erewrite eval_eq_int; [| apply eval_mod_int; [exact Hc | reflexivity | lia] | reflexivity].
  cbn [truthy]. now rewrite mod_test.
Qed.

Lemma span_la c r : la (span c r) = (la "<span style=""color:" ++ la c ++ la """>" ++ [aa_char r] ++ la "</span>")%list.
Proof. unfold span. rewrite !chars_app. destruct r; reflexivity. Qed.

Lemma gh_step s pal st res col a :
  exec gh_body (set "residue" (VStr [aa_char a]) (gh_env s pal (VStr (la (fst st))) (VInt (Z.of_nat (snd st) - 1)) res col)) =
  ONorm (gh_env s pal (VStr (la (fst (m_step pal st a)))) (VInt (Z.of_nat (snd (m_step pal st a)) - 1)) (VStr [aa_char a]) (VStr (la (pal a)))).
Proof.
  destruct st as [str n]. cbn [m_step fst snd]. replace (Z.of_nat (S n) - 1) with (Z.of_nat n) by lia. unfold gh_body.
  rewrite (step_assign _ _ _ _ (VN n)); [| | reflexivity].
  2:{ rewrite (eval_add_int _ _ _ (Z.of_nat n - 1) 1) by reflexivity. f_equal. lia. }
  erewrite (step_append_if _ _ _ _ _ (n mod 10 =? 0)%nat);
    [| apply (count_test _ n 10); [reflexivity | lia] | reflexivity | reflexivity].
  erewrite (step_append_if _ _ _ _ _ (n mod 50 =? 0)%nat);
    [| apply (count_test _ n 50); [reflexivity | lia] | reflexivity | reflexivity].
  rewrite (step_assign _ _ _ _ (VStr (la (pal a))));
    [| eapply eval_index_dict; [reflexivity | reflexivity | reflexivity | apply (dict_get_kv_In (fun a => sv (pal a))), all20_complete] | reflexivity].
  rewrite chars_app, span_la. destruct (n mod 10 =? 0)%nat, (n mod 50 =? 0)%nat; rewrite ?chars_app; reflexivity.
Qed.

Lemma gh_loop s pal l : forall st res col, exists cnt' res' col',
  run_loop "residue" gh_body (map (fun a => VStr [aa_char a]) l) (gh_env s pal (VStr (la (fst st))) (VInt (Z.of_nat (snd st) - 1)) res col) =
  ONorm (gh_env s pal (VStr (la (fst (fold_left (m_step pal) l st)))) cnt' res' col').
Proof.
  induction l as [|a l IH]; intros st res col; cbn [map MiniPy.run_loop fold_left].
  - eexists _, res, col. reflexivity.
  - rewrite gh_step. apply IH.
Qed.

(* the whole of get_HTMLColorString, for EVERY sequence and palette, is Model.Html.m_render (= render, Proofs/Html) *)
Theorem get_HTMLColorString_tie s pal :
  exec g_get_html (gh_env s pal VNone VNone VNone VNone) = ORet (VStr (la (m_render pal s))).
Proof.
  rewrite (exec_split_for _ _ _ _ _ _ (gh_env s pal VNone VNone VNone VNone) (gh_env s pal (sv header) (VInt (Z.of_nat 0 - 1)) VNone VNone)
             _ gh_split_eq eq_refl (elements_seq_val s)).
  destruct (gh_loop s pal s (header, 0%nat) VNone VNone) as (cnt' & res' & col' & E). cbn [fst snd] in E. rewrite E.
  unfold m_render. rewrite chars_app. reflexivity.
Qed.
Print Assumptions get_HTMLColorString_tie.

Definition dict_val (d : list (string * string)) : value := VDict (map (fun p => (sv (fst p), sv (snd p))) d).
Definition pal_val (t : list (aa * string)) : list (value * value) := map (fun p => (kv (fst p), sv (snd p))) t.

Definition sp_env (d : list (string * string)) (valid iv amap : value) : env :=
  [("self"%string, VNone); ("colorDict"%string, dict_val d); ("valid"%string, valid); ("i"%string, iv);
   ("self.aminoAcidColorMap"%string, amap)].

Definition sp_pre : list stmt := Eval vm_compute in match split_at_for g_set_palette with Some (p, _, _) => p | None => [] end.
Definition sp_body : stmt := Eval vm_compute in match split_at_for g_set_palette with Some (_, (_, _, b), _) => b | None => SSkip end.
Definition sp_iter : expr := Eval vm_compute in match split_at_for g_set_palette with Some (_, (_, e, _), _) => e | None => EConst VNone end.
Definition sp_rest : stmt := Eval vm_compute in match split_at_for g_set_palette with Some (_, _, r) => r | None => SRaise end.
Lemma sp_split_eq : split_at_for g_set_palette = Some (sp_pre, ("i"%string, sp_iter, sp_body), sp_rest).
Proof. vm_compute. reflexivity. Qed.
Lemma sp_keys r : elements (eval sp_iter r) = Some (map (fun a => kv a) all20).
Proof. reflexivity. Qed.

Lemma lower_colour c : in_strs c colours17 = true -> map lower_py (la c) = la c.
Proof. intros H. apply in_strs_In in H. revert c H. apply Forall_forall. repeat constructor. Qed.

(* first loop: one key *)
Lemma sp_step1 d t iv amap a : ~ In a (map fst t) ->
  exec sp_body (set "i" (kv a) (sp_env d (VDict (pal_val t)) iv amap)) =
  match assoc (aa_str a) d with
  | Some c => if in_strs c colours17 then ONorm (sp_env d (VDict (pal_val (t ++ [(a, c)]))) (kv a) amap) else ORaise
  | None => ORaise
  end.
Proof.
  intros Hnew. unfold sp_body. set (r := set "i" (kv a) (sp_env d (VDict (pal_val t)) iv amap)).
  pose proof (dict_get_assoc (aa_str a) d) as Ha. rewrite <- kv_sv in Ha.
  erewrite (step_raise_unless_in _ _ _ _ (match dict_get (kv a) _ with Some _ => true | None => false end)) by reflexivity.
  destruct (assoc (aa_str a) d) as [c|]; rewrite Ha; cbn [option_map]; [|reflexivity].
  assert (Ec : eval (EIndex (EVar "colorDict") (EVar "i")) r = sv c)
    by (eapply eval_index_dict; [reflexivity | reflexivity | reflexivity | exact Ha]).
  rewrite (step_raise_unless_in _ _ _ _ (in_strs c colours17)) by (rewrite Ec; unfold in_strs; rewrite <- existsb_sv; reflexivity).
  destruct (in_strs c colours17) eqn:Ecol; [|reflexivity].
  rewrite (exec_setitem_dict _ _ _ _ (pal_val t) (kv a) (sv c));
    [| reflexivity | reflexivity | rewrite (eval_lower_str _ _ _ Ec), (lower_colour c Ecol); reflexivity | reflexivity | reflexivity].
  rewrite (dict_set_new _ _ _ (dict_get_kv_none (fun c => sv c) a t Hnew)). unfold pal_val. rewrite map_app. reflexivity.
Qed.

Lemma sp_loop1 d amap rs : forall t iv, NoDup (map fst t ++ rs) ->
  match lookup_rs d rs with
  | Some t' => exists iv', run_loop "i" sp_body (map (fun a => kv a) rs) (sp_env d (VDict (pal_val t)) iv amap) =
                           ONorm (sp_env d (VDict (pal_val (t ++ t'))) iv' amap)
  | None => run_loop "i" sp_body (map (fun a => kv a) rs) (sp_env d (VDict (pal_val t)) iv amap) = ORaise
  end.
Proof.
  induction rs as [|a rs IH]; intros t iv Hnd; cbn [lookup_rs map MiniPy.run_loop].
  - exists iv. now rewrite app_nil_r.
  - assert (Hnew : ~ In a (map fst t)).
    { intros Hin. apply NoDup_remove_2 in Hnd. apply Hnd. apply in_or_app. left. exact Hin. }
    rewrite (sp_step1 d t iv amap a Hnew). destruct (assoc (aa_str a) d) as [c|]; [|reflexivity].
    destruct (in_strs c colours17); [|reflexivity].
    assert (Hnd' : NoDup (map fst (t ++ [(a, c)]) ++ rs)).
    { rewrite map_app. cbn [map fst]. rewrite <- app_assoc. exact Hnd. }
    specialize (IH (t ++ [(a, c)]) (kv a) Hnd'). destruct (lookup_rs d rs) as [t'|].
    + destruct IH as [iv' E]. exists iv'. rewrite E. rewrite <- app_assoc. reflexivity.
    + exact IH.
Qed.

(* second loop: the validated dictionary is copied, key by key, into a fresh colour map *)
Definition sp_body2 : stmt := SSetItem "self.aminoAcidColorMap" (EVar "i") (EIndex (EVar "valid") (EVar "i")).

Lemma sp_loop2 d t : NoDup (map fst t) -> forall suf pre iv, t = pre ++ suf ->
  exists iv', run_loop "i" sp_body2 (map (fun p => kv (fst p)) suf) (sp_env d (VDict (pal_val t)) iv (VDict (pal_val pre))) =
              ONorm (sp_env d (VDict (pal_val t)) iv' (VDict (pal_val t))).
Proof.
  intros Hnd. induction suf as [|[a c] suf IH]; intros pre iv Ht; cbn [map MiniPy.run_loop fst].
  - exists iv. rewrite app_nil_r in Ht. subst pre. reflexivity.
  - assert (Hnew : ~ In a (map fst pre)).
    { rewrite Ht, map_app in Hnd. cbn [map fst] in Hnd. apply NoDup_remove_2 in Hnd. intros Hin. apply Hnd. apply in_or_app. left. exact Hin. }
    unfold sp_body2.
    rewrite (exec_setitem_dict _ _ _ _ (pal_val pre) (kv a) (sv c)); [| reflexivity | reflexivity | | reflexivity | reflexivity].
    2:{ eapply eval_index_dict; [reflexivity | reflexivity | reflexivity | rewrite Ht; apply (dict_get_kv_some (fun c => sv c)), Hnew]. }
    rewrite (dict_set_new _ _ _ (dict_get_kv_none (fun c => sv c) a pre Hnew)).
    assert (Ht' : t = (pre ++ [(a, c)]) ++ suf) by (rewrite <- app_assoc; exact Ht).
    destruct (IH (pre ++ [(a, c)]) (kv a) Ht') as [iv' E]. exists iv'. unfold sp_env, pal_val in *. rewrite map_app in E. exact E.
Qed.

Lemma sp_rest_eq : sp_rest = SSeq (SAssign "self.aminoAcidColorMap" (EConst (VDict []))) (SFor "i" (EVar "valid") sp_body2).
Proof. reflexivity. Qed.

(* the whole of set_HTMLColorResiduePalette, for EVERY dictionary of strings: rejected (raise) exactly when the model
   rejects; otherwise the object's colour map becomes the validated dictionary, in the order of the 20 residues *)
Theorem set_palette_tie d amap :
  match lookup_all d with
  | Some t => exists iv, exec g_set_palette (sp_env d VNone VNone amap) =
                         ONorm (sp_env d (VDict (pal_val t)) iv (VDict (pal_val t)))
  | None => exec g_set_palette (sp_env d VNone VNone amap) = ORaise
  end.
Proof.
  rewrite (exec_split_for _ _ _ _ _ _ (sp_env d VNone VNone amap) (sp_env d (VDict (pal_val [])) VNone amap) _ sp_split_eq eq_refl (sp_keys _)).
  unfold lookup_all.
  pose proof (sp_loop1 d amap all20 [] VNone) as H1. cbn [map app] in H1. specialize (H1 all20_nodup).
  destruct (lookup_rs d all20) as [t|] eqn:Et; [|rewrite H1; reflexivity].
  destruct H1 as [iv' E]. rewrite E. cbn [app]. rewrite sp_rest_eq, step_const by reflexivity.
  assert (Hnd : NoDup (map fst t)) by (rewrite (proj1 (lookup_rs_sound d all20 t Et)); exact all20_nodup).
  destruct (sp_loop2 d t Hnd t [] iv' eq_refl) as [iv'' E2]. exists iv''.
  rewrite (exec_for_elems _ _ _ _ (map (fun p => kv (fst p)) t)); [exact E2|].
  change (Some (map fst (pal_val t)) = Some (map (fun p => kv (fst p)) t)). unfold pal_val. now rewrite map_map.
Qed.

(* ... and that dictionary is the colour map of the model's new palette: what get_HTMLColorString (tied above) then
   renders with *)
Lemma find_own (t : list (aa * string)) : NoDup (map fst t) -> forall p, In p t -> find (fun q => aa_eqb (fst q) (fst p)) t = Some p.
Proof.
  induction t as [|q t IH]; intros Hnd p Hin; [destruct Hin|]. cbn [find]. inversion Hnd as [|? ? Hnotin Hnd']; subst.
  destruct Hin as [->|Hin]; [rewrite aa_eqb_refl; reflexivity|].
  destruct (aa_eqb_spec (fst q) (fst p)) as [E|_]; [|apply IH; assumption].
  exfalso. apply Hnotin. rewrite E. apply in_map. exact Hin.
Qed.

Theorem accepted_palette_is_the_models d pal t : lookup_all d = Some t ->
  VDict (pal_val t) = VDict (map (fun a => (kv a, sv (pal_of t pal a))) all20) /\ set_palette pal d = Some (pal_of t pal).
Proof.
  intros H. split; [|unfold set_palette; rewrite H; reflexivity]. f_equal.
  pose proof (proj1 (lookup_rs_sound d all20 t H)) as Hk. assert (Hnd : NoDup (map fst t)) by (rewrite Hk; exact all20_nodup).
  rewrite <- Hk, map_map. unfold pal_val. apply map_ext_in. intros p Hp. f_equal. f_equal. f_equal.
  unfold pal_of. rewrite (find_own t Hnd p Hp). reflexivity.
Qed.
Print Assumptions set_palette_tie.

(* the public getters (SequenceParameters) are exactly a return of the backend call with their own arguments *)
Lemma fw_get_HTMLColorString : g_fw_get_HTMLColorString = SReturn (ECall "SeqObj.get_HTMLColorString"%string []). Proof. reflexivity. Qed.
