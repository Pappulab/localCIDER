(* Tie (C11) — SEMANTIC: SequenceComplexity.LZW, SequenceComplexity.LC and SequenceComplexity.CWF, translated from the
   working tree on every run into Core.MiniPy terms (while-loop over the window starts, for-loop inside a window, Python
   sets as duplicate-free lists, string concatenation / slicing / membership / count).  For EVERY residue word, window
   size >= 1 and step >= 1 the translated code returns, window by window, exactly Model.Complexity.lzw_value / lc_value,
   and for CWF minus the accumulated sum of p * log(p) over the model's letter counts.  float(a) / b is the primitive
   "fdiv": the exact rational a / b; math.log is an oracle. *)
From Coq Require Import List String QArith Lia.
From LC Require Import Core.Residue Core.Lists Core.MiniPy Core.MiniPyData Core.MiniPyExec Model.Complexity Proofs.Complexity Gen.GMiniPy.
Import ListNotations.
Local Open Scope Z_scope.

Notation wv l := (VStr (map aa_char l)).

Definition cx_prim (name : string) (args : list value) : value :=
  if String.eqb name "fdiv" then
    match args with [VInt a; VInt b] => if 0 <? b then VQ (a # Z.to_pos b) else VExc | _ => VErr end
  else if String.eqb name "pow" then
    match args with [VInt a; VInt b] => if 0 <=? b then VInt (a ^ b) else VErr | _ => VErr end
  else if String.eqb name "min" then
    match args with [VList [VInt a; VInt b]] => VInt (Z.min a b) | _ => VErr end
  else VErr.
Local Notation exec := (MiniPy.exec cx_prim).
Local Notation eval := (MiniPy.eval cx_prim).

Lemma cx_fdiv a n : (1 <= n)%nat -> cx_prim "fdiv" [VInt a; VN n] = VQ (a # Pos.of_nat n).
Proof.
  intros H. unfold cx_prim. cbn [String.eqb Ascii.eqb Bool.eqb]. replace (0 <? Z.of_nat n) with true by (symmetry; apply Z.ltb_lt; lia).
  now rewrite to_pos_of_nat.
Qed.

Lemma word_eqb a : forall b, ascii_list_eqb (map aa_char a) (map aa_char b) = laa_eqb2 a b.
Proof.
  induction a as [|x a IH]; intros [|y b]; try reflexivity. cbn [map ascii_list_eqb laa_eqb2]. now rewrite aa_char_eqb, IH.
Qed.

Lemma member_words cand dict : existsb (veqb (wv cand)) (map (fun l => wv l) dict) = existsb (laa_eqb2 cand) dict.
Proof.
  induction dict as [|d dict IH]; [reflexivity|]. cbn [map existsb]. rewrite IH.
  change (veqb (wv cand) (wv d)) with (ascii_list_eqb (map aa_char cand) (map aa_char d)). now rewrite word_eqb.
Qed.

(* the loop test the three measures share: while step <= len(sequence) - windowSize *)
Definition window_cond : expr := Eval vm_compute in while_cond (stmt_at 2 g_LZW).

Section Windows.
Variable prim : string -> list value -> value.
Variable fuel : nat.
Variable s : list aa.
Variables w st : nat.
Variable out : string.                     (* the list the values are appended to *)
Variable keep : list (string * value).     (* the other arguments, which the body leaves alone *)
Variable body : stmt.
Variable F : list aa -> value.
Local Notation N := (List.length s).

Definition window_args : list (string * value) := [("sequence"%string, wv s); ("windowSize"%string, VN w); ("stepSize"%string, VN st)] ++ keep.
(* at the start of the window at p, with the values of the windows before it in arr *)
Definition at_window (p : nat) (arr : list value) (r : env) : Prop := binds (("step"%string, VN p) :: (out, VList arr) :: window_args) r.
Definition distinct_names : bool := negb (String.eqb "step" out) && avoids ["step"%string; out] window_args.

Lemma distinct_step_out : distinct_names = true -> String.eqb "step" out = false /\ String.eqb out "step" = false.
Proof.
  intros Hn. apply andb_prop in Hn. destruct Hn as [Hos _]. apply negb_true_iff in Hos. split; [exact Hos|]. rewrite String.eqb_sym. exact Hos.
Qed.
Lemma args_kept r r' : distinct_names = true -> same_except ["step"%string; out] r r' -> binds window_args r -> binds window_args r'.
Proof. intros Hn Hfr. apply andb_prop in Hn. destruct Hn as [_ Hav]. exact (binds_off _ _ r r' Hfr Hav). Qed.

(* the last two statements of every window: append the window's value, advance the start; xs are the names the
   statements before them have assigned *)
Lemma window_finish xs p arr r r' e v : distinct_names = true -> avoids xs (("step"%string, VN p) :: (out, VList arr) :: window_args) = true ->
  at_window p arr r -> same_except xs r r' -> MiniPy.eval prim e r' = v -> is_bad v = false ->
  exists r'', MiniPy.exec_list prim fuel [SAppend out e; SAssign "step" (EAdd (EVar "step") (EVar "stepSize"))] r' = ONorm r'' /\
    at_window (p + st) (arr ++ [v]) r''.
Proof.
  intros Hn Hxs A Hfr He Hv. destruct (binds_off xs _ r r' Hfr Hxs A) as (Hst & Harr & Hargs).
  change (binds window_args r') in Hargs.
  destruct (distinct_step_out Hn) as [Hso Hos].
  rewrite (step_append_list _ _ _ _ arr v Harr He Hv). set (r1 := set out _ r').
  assert (Hargs1 : binds window_args r1).
  { apply (args_kept r'); [exact Hn | | exact Hargs]. apply same_except_set. right. left. reflexivity. }
  rewrite (step_assign_list "step" _ _ _ (VN (p + st))); [| | reflexivity].
  2: { rewrite Nat2Z.inj_add. apply eval_add_int; [rewrite eval_var; unfold r1; rewrite lookup_set_neq by exact Hso; exact Hst | rewrite eval_var; apply Hargs1]. }
  eexists. split; [reflexivity|]. split; [apply lookup_set_eq|]. split; [unfold r1; rewrite lookup_set_neq by exact Hos; apply lookup_set_eq|].
  apply (args_kept r1); [exact Hn | | exact Hargs1]. apply same_except_set. left. reflexivity.
Qed.

Hypothesis body_ok : forall p arr r, (p + w <= N)%nat -> at_window p arr r ->
  exists r', MiniPy.exec prim fuel body r = ONorm r' /\ at_window (p + st) (arr ++ [F (firstn w (skipn p s))]) r'.

Lemma nwin_lt i : (1 <= st)%nat -> (i < nwin N w st)%nat <-> (i * st + w <= N)%nat.
Proof.
  intros Hst. unfold nwin. destruct (Nat.ltb_spec N w) as [H|H]; [lia|].
  split; intros Hi.
  - assert (i <= (N - w) / st)%nat by lia. assert (st * i <= N - w)%nat; [|lia].
    transitivity (st * ((N - w) / st))%nat; [apply Nat.mul_le_mono_l; assumption | apply Nat.mul_div_le; lia].
  - assert (i <= (N - w) / st)%nat; [|lia]. apply Nat.div_le_lower_bound; lia.
Qed.

Lemma window_cond_val i arr r : (1 <= st)%nat -> at_window (i * st) arr r ->
  truthy (MiniPy.eval prim window_cond r) = VBool (i <? nwin N w st)%nat.
Proof.
  intros Hst (Hp & _ & Hs & Hws & _). unfold window_cond.
  rewrite (eval_le_int _ _ _ (Z.of_nat (i * st)) (Z.of_nat N - Z.of_nat w)).
  - cbn [truthy]. f_equal. destruct (Nat.ltb_spec i (nwin N w st)) as [H|H].
    + apply nwin_lt in H; [|exact Hst]. apply Z.leb_le. lia.
    + apply Z.leb_gt. assert (~ (i * st + w <= N)%nat) by (rewrite <- nwin_lt by exact Hst; lia). lia.
  - var Hp.
  - apply eval_sub_int; [|var Hws]. rewrite <- (map_length aa_char s). apply eval_len_str. var Hs.
Qed.

(* the remaining m windows, with any fuel above m *)
Lemma windows_while : (1 <= st)%nat -> forall m i arr k r, (i + m = nwin N w st)%nat -> at_window (i * st) arr r ->
  exists r', MiniPy.run_while prim fuel window_cond body (S (m + k)) r = ONorm r' /\
    lookup out r' = VList (arr ++ map (fun j => F (window w st s j)) (seq i m)).
Proof.
  intros Hst. induction m as [|m IH]; intros i arr k r Him H.
  - rewrite run_while_false; [| rewrite (window_cond_val i arr r Hst H); f_equal; apply Nat.ltb_ge; lia].
    exists r. split; [reflexivity|]. cbn [seq map]. rewrite app_nil_r. apply H.
  - destruct (body_ok (i * st) arr r) as [r1 [E1 H1]]; [apply nwin_lt; [exact Hst | lia] | exact H |].
    rewrite (run_while_true _ _ _ _ r1); [| rewrite (window_cond_val i arr r Hst H); f_equal; apply Nat.ltb_lt; lia | exact E1].
    rewrite (Nat.add_comm (i * st) st) in H1.
    destruct (IH (S i) (arr ++ [F (window w st s i)]) k r1) as [r2 [E2 H2]]; [lia | exact H1 |].
    exists r2. split; [exact E2|]. rewrite H2, <- app_assoc. reflexivity.
Qed.

Lemma windows_fun g r : spine g = [SAssign "step" (EConst (VInt 0)); SAssign out (EListLit []); SWhile window_cond body; SReturn (EVar out)] ->
  (1 <= st)%nat -> (nwin N w st < fuel)%nat -> distinct_names = true -> binds window_args r ->
  MiniPy.exec prim fuel g r = ORet (VList (map F (windows w st s))).
Proof.
  intros Hg Hst Hf Hn H. rewrite exec_spine, Hg.
  rewrite step_const_list, (step_assign_list _ _ _ _ (VList [])) by reflexivity.
  rewrite exec_list_cons, exec_while.
  destruct (windows_while Hst (nwin N w st) 0 [] (fuel - S (nwin N w st)) (set out (VList []) (set "step" (VInt 0) r)) eq_refl) as [r2 [E2 H2]].
  { destruct (distinct_step_out Hn) as [Hso _].
    split; [rewrite lookup_set_neq by exact Hso; apply lookup_set_eq|]. split; [apply lookup_set_eq|].
    apply (args_kept r); [exact Hn | | exact H]. apply same_except_step; [right; left; reflexivity|]. apply same_except_set. left. reflexivity. }
  replace (S (nwin N w st + (fuel - S (nwin N w st)))) with fuel in E2 by lia.
  rewrite E2, (step_return_list _ _ _ _ (eq_trans (eval_var _ _) H2) eq_refl).
  unfold windows. rewrite map_map. reflexivity.
Qed.
End Windows.

Section LZW.
Variable fuel : nat.
Variable s : list aa.
Variables w st : nat.
Local Notation N := (List.length s).

Definition lz_while_body : stmt := Eval vm_compute in while_body (stmt_at 2 g_LZW).
(* the body of  for i in range(0, windowSize)  *)
Definition lz_for_body : stmt := Eval vm_compute in for_body (stmt_at 4 lz_while_body).
(* if windowSize > 0: LZW = float(n) / windowSize; LZW_array.append(LZW) *)
Definition lz_emit : stmt := Eval vm_compute in stmt_at 6 lz_while_body.
Lemma lz_wparts : spine lz_while_body = [SAssign "LZW" (EConst (VInt 0)); SAssign "i" (EConst (VInt 0)); SAssign "w" (EConst (VStr [])); SAssign "ngrams" (EListLit []);
                               SFor "i" (ERange (EConst (VInt 0)) (EVar "windowSize")) lz_for_body; SAssign "n" (ELen (EVar "ngrams"));
                               lz_emit; SAssign "step" (EAdd (EVar "step") (EVar "stepSize"))].
Proof. reflexivity. Qed.
Lemma lz_emit_parts : lz_emit = SIf (EGt (EVar "windowSize") (EConst (VInt 0)))
                                  (SSeq (SAssign "LZW" (ECall "fdiv" [EVar "n"; EVar "windowSize"])) (SAppend "LZW_array" (EVar "LZW"))) SSkip.
Proof. reflexivity. Qed.

Definition words (dict : list (list aa)) : list value := map (fun l => wv l) (rev dict).
(* the names a window assigns before it appends its value *)
Definition lz_scratch : list string := ["LZW"; "i"; "w"; "ngrams"; "position"; "n"]%string.

(* inside the window that starts in r: the dictionary and the current word are the model's pair b *)
Definition lz_inv (r : env) (b : list (list aa) * list aa) (r' : env) : Prop :=
  lookup "ngrams" r' = VList (words (fst b)) /\ lookup "w" r' = wv (snd b) /\ same_except lz_scratch r r'.

Lemma lz_iter p0 r k b r1 : lookup "sequence" r = wv s -> lookup "step" r = VN p0 -> (p0 + k < N)%nat -> lz_inv r b r1 ->
  exists r', exec fuel lz_for_body (set "i" (VN k) r1) = ONorm r' /\ lz_inv r (lzw_step b (nth (p0 + k) s Ala)) r'.
Proof.
  intros Hs Hst Hk (Hng & Hw & Hfr). destruct b as [dict wd]. cbn [fst snd] in Hng, Hw. set (c := nth (p0 + k) s Ala).
  unfold lz_for_body. rewrite (step_assign "position" _ _ _ (VN (p0 + k))); [| | reflexivity].
  2: { rewrite Nat2Z.inj_add. apply eval_add_int; [var_off Hfr Hst | var eq_refl]. }
  set (r2 := set "position" _ _).
  assert (Ech : forall r3, lookup "sequence" r3 = wv s -> lookup "position" r3 = VN (p0 + k) -> eval (EIndex (EVar "sequence") (EVar "position")) r3 = wv [c]).
  { intros r3 H1 H2. apply (eval_index_str _ _ _ (map aa_char s) (Z.of_nat (p0 + k))); [var H1 | var H2 | apply index_val_map; exact Hk]. }
  assert (Ech2 : eval (EIndex (EVar "sequence") (EVar "position")) r2 = wv [c]).
  { apply Ech; unfold r2; lk; [rewrite Hfr by reflexivity; exact Hs | reflexivity]. }
  assert (Hw2 : eval (EVar "w") r2 = wv wd) by (unfold r2; var Hw).
  assert (Hng2 : lookup "ngrams" r2 = VList (words dict)) by (unfold r2; lk; exact Hng).
  assert (Ecand : eval (EAdd (EVar "w") (EIndex (EVar "sequence") (EVar "position"))) r2 = wv (wd ++ [c])).
  { rewrite map_app. apply eval_add_str; [exact Hw2 | exact Ech2]. }
  assert (Ein : v_in (eval (EAdd (EVar "w") (EIndex (EVar "sequence") (EVar "position"))) r2) (eval (EVar "ngrams") r2) = VBool (existsb (laa_eqb2 (wd ++ [c])) dict)).
  { rewrite Ecand, eval_var, Hng2. unfold v_in. cbn [bad2]. unfold words. now rewrite member_words, existsb_rev. }
  cbn [lzw_step]. rewrite (exec_if_bool _ _ _ _ _ (eq_trans (eval_in _ _ _) Ein)). destruct (existsb (laa_eqb2 (wd ++ [c])) dict).
  - (* known word: w = sequence[position] + w *)
    rewrite (exec_assign_ok "w" _ _ (wv (c :: wd))); [| apply (eval_add_str _ _ _ [aa_char c] (map aa_char wd)); [exact Ech2 | exact Hw2] | reflexivity].
    eexists. split; [reflexivity|]. split; [lk; exact Hng2 | split; [lk; reflexivity|]].
    unfold r2. apply (same_except_sets _ [(_, _); (_, _); (_, _)]); [reflexivity | exact Hfr].
  - (* new word: ngrams.add(w + sequence[position]); w = sequence[position] *)
    rewrite exec_seq, exec_if_true by (rewrite eval_notin, Ein; reflexivity).
    rewrite (exec_append_ok _ _ _ _ _ Hng2 Ecand eq_refl).
    rewrite (exec_assign_ok "w" _ _ (wv [c])); [| apply Ech; unfold r2; lk; [rewrite Hfr by reflexivity; exact Hs | reflexivity] | reflexivity].
    eexists. split; [reflexivity|]. split; [lk; unfold words; cbn [rev fst]; rewrite (map_app _ (rev dict)); reflexivity | split; [lk; reflexivity|]].
    unfold r2. apply (same_except_sets _ [(_, _); (_, _); (_, _); (_, _)]); [reflexivity | exact Hfr].
Qed.

Lemma lz_loop p0 r r1 : lookup "sequence" r = wv s -> lookup "step" r = VN p0 -> (p0 + w <= N)%nat -> lz_inv r ([], []) r1 ->
  exists r2, MiniPy.run_loop cx_prim fuel "i" lz_for_body (ints (seq 0 w)) r1 = ONorm r2 /\
    lz_inv r (fold_left lzw_step (firstn w (skipn p0 s)) ([], [])) r2.
Proof.
  intros Hs Hst Hp H1. rewrite (window_chars Ala s p0 w Hp).
  apply (run_loop_fold (prim := cx_prim) (wfuel := fuel) "i" lz_for_body (fun k => VN k) (fun k => nth (p0 + k) s Ala) lzw_step (lz_inv r)); [| exact H1].
  intros k b r' Hk Hb. apply in_seq in Hk. destruct (lz_iter p0 r k b r' Hs Hst ltac:(lia) Hb) as [r'' [E H]].
  exists r''. split; [left; exact E | exact H].
Qed.

Lemma lz_window (p0 : nat) (arr : list value) r : (1 <= w)%nat -> (p0 + w <= N)%nat -> at_window s w st "LZW_array" [] p0 arr r ->
  exists r', exec fuel lz_while_body r = ONorm r' /\
    at_window s w st "LZW_array" [] (p0 + st) (arr ++ [VQ (lzw_value w (firstn w (skipn p0 s)))]) r'.
Proof.
  intros Hw Hp A. pose proof A as (Hst & _ & Hs & Hws & _). set (win := firstn w (skipn p0 s)).
  rewrite exec_spine, lz_wparts, !step_const_list, (step_assign_list _ _ _ _ (VList [])) by reflexivity.
  rewrite exec_list_cons, (exec_for_range0 _ _ _ _ _ w); [| reflexivity | var Hws].
  destruct (lz_loop p0 r (sets [("ngrams"%string, VList []); ("w"%string, VStr []); ("i"%string, VInt 0); ("LZW"%string, VInt 0)] r) Hs Hst Hp) as [r2 [E2 (Hng2 & _ & Hfr)]].
  { split; [rewrite lookup_sets; reflexivity | split; [rewrite lookup_sets; reflexivity|]]. apply same_except_sets; [reflexivity | apply same_except_refl]. }
  cbn [sets] in E2. rewrite E2. fold win in Hng2.
  destruct (fold_left lzw_step win ([], [])) as [dict wd] eqn:Efold. cbn [fst] in Hng2.
  rewrite (step_assign_list "n" _ _ _ (VN (List.length dict))); [| | reflexivity].
  2: { rewrite (eval_len_list _ _ _ (eq_trans (eval_var _ _) Hng2)). unfold words. now rewrite map_length, rev_length. }
  rewrite lz_emit_parts, (step_if_list _ _ _ _ _ true).
  2: { rewrite (eval_gt_int _ _ _ (Z.of_nat w) 0); [cbn [truthy]; f_equal; apply Z.gtb_lt; lia | var_off Hfr Hws | reflexivity]. }
  rewrite step_seq_list, (step_assign_list "LZW" _ _ _ (VQ (lzw_value w win))); [| | reflexivity].
  2: { rewrite (eval_call2 _ _ _ _ (VN (List.length dict)) (VN w)); [| var eq_refl | var_off Hfr Hws | reflexivity | reflexivity].
       rewrite (cx_fdiv _ _ Hw). unfold lzw_value. now rewrite Efold. }
  apply (window_finish cx_prim fuel s w st "LZW_array" [] lz_scratch p0 arr r); [reflexivity | reflexivity | exact A | | var eq_refl | reflexivity].
  apply (same_except_sets _ [(_, _); (_, _)]); [reflexivity | exact Hfr].
Qed.

(* LZW on EVERY residue word, window size >= 1 and step >= 1 (with enough loop fuel): window by window, the model's value *)
Theorem LZW_tie r : (1 <= w)%nat -> (1 <= st)%nat -> (nwin N w st < fuel)%nat ->
  lookup "sequence" r = wv s -> lookup "windowSize" r = VN w -> lookup "stepSize" r = VN st ->
  exec fuel g_LZW r = ORet (VList (map (fun win => VQ (lzw_value w win)) (windows w st s))).
Proof.
  intros Hw Hst Hf Hs Hws Hss.
  apply (windows_fun cx_prim fuel s w st "LZW_array" [] lz_while_body _ (fun p arr r0 => lz_window p arr r0 Hw));
    [reflexivity | exact Hst | exact Hf | reflexivity | exact (conj Hs (conj Hws (conj Hss I)))].
Qed.
End LZW.
Print Assumptions LZW_tie.

(* first occurrences, as the code's set keeps them *)
Definition fo_step (acc : list (list aa)) (x : list aa) : list (list aa) := if existsb (laa_eqb2 x) acc then acc else acc ++ [x].
Definition fo (acc l : list (list aa)) : list (list aa) := fold_left fo_step l acc.

Lemma fo_In l : forall acc x, In x (fo acc l) <-> In x acc \/ In x l.
Proof.
  induction l as [|y l IH]; intros acc x; unfold fo; cbn [fold_left]; [cbn [In]; tauto|]. fold (fo (fo_step acc y) l). rewrite IH. unfold fo_step.
  destruct (existsb (laa_eqb2 y) acc) eqn:E.
  - apply (existsb_eqb_In laa_eqb2 laa_eqb2_eq) in E. cbn [In]. split; [tauto|]. intros [H|[H|H]]; [tauto | subst; tauto | tauto].
  - rewrite in_app_iff. cbn [In]. tauto.
Qed.

Lemma fo_NoDup l : forall acc, NoDup acc -> NoDup (fo acc l).
Proof.
  induction l as [|y l IH]; intros acc H; unfold fo; cbn [fold_left]; [exact H|]. fold (fo (fo_step acc y) l). apply IH. unfold fo_step.
  destruct (existsb (laa_eqb2 y) acc) eqn:E; [exact H|].
  apply NoDup_snoc; [exact H|]. intros C. apply (existsb_eqb_In laa_eqb2 laa_eqb2_eq) in C. congruence.
Qed.

(* the number of distinct words does not depend on which occurrence is kept *)
Lemma fo_length l : List.length (fo [] l) = List.length (dedup_words l).
Proof.
  apply Nat.le_antisymm; apply NoDup_incl_length.
  - apply fo_NoDup. constructor.
  - intros x Hx. apply fo_In in Hx. destruct Hx as [[]|Hx]. now apply dedup_words_spec.
  - apply dedup_words_spec.
  - intros x Hx. apply fo_In. right. now apply dedup_words_spec.
Qed.

Section LC.
Variable fuel : nat.
Variable s : list aa.
Variables w st ws k : nat.
Local Notation N := (List.length s).

Definition lc_while_body : stmt := Eval vm_compute in while_body (stmt_at 2 g_LC).
(* the body of  for i in range(0, windowSize - wordSize)  *)
Definition lc_for_body : stmt := Eval vm_compute in for_body (stmt_at 4 lc_while_body).
Definition lc_vmax : stmt := Eval vm_compute in stmt_at 6 lc_while_body.
Lemma lc_wparts : spine lc_while_body = [SAssign "LC" (EConst (VInt 0)); SAssign "i" (EConst (VInt 0)); SAssign "ngrams" (EListLit []); SAssign "ngram" (EConst (VStr []));
                               SFor "i" (ERange (EConst (VInt 0)) (ESub (EVar "windowSize") (EVar "wordSize"))) lc_for_body; SAssign "v" (ELen (EVar "ngrams"));
                               lc_vmax; SAssign "LC" (ECall "fdiv" [EVar "v"; EVar "vmax"]); SAppend "LC_array" (EVar "LC");
                               SAssign "step" (EAdd (EVar "step") (EVar "stepSize"))].
Proof. reflexivity. Qed.
Lemma lc_vmax_parts : lc_vmax = SAssign "vmax" (ECall "min" [EListLit [ECall "pow" [ELen (EVar "alphabet"); EVar "wordSize"];
                                                                         EAdd (ESub (EVar "windowSize") (EConst (VInt 1))) (EVar "wordSize")]]).
Proof. reflexivity. Qed.

Definition wordsv (acc : list (list aa)) : list value := map (fun l => wv l) acc.
Definition lc_scratch : list string := ["LC"; "i"; "ngrams"; "ngram"; "position"; "v"; "vmax"]%string.

(* inside the window that starts in r: the set holds the first occurrences acc *)
Definition lc_inv (r : env) (acc : list (list aa)) (r' : env) : Prop :=
  lookup "ngrams" r' = VList (wordsv acc) /\ same_except lc_scratch r r'.

Lemma lc_iter p0 r j acc r1 : lookup "sequence" r = wv s -> lookup "step" r = VN p0 -> lookup "wordSize" r = VN ws -> (p0 + w <= N)%nat -> (j + ws <= w)%nat ->
  lc_inv r acc r1 ->
  exists r', exec fuel lc_for_body (set "i" (VInt (0 + Z.of_nat j)) r1) = ONorm r' /\ lc_inv r (fo_step acc (firstn ws (skipn j (firstn w (skipn p0 s))))) r'.
Proof.
  intros Hs Hst Hws Hp Hj (Hng & Hfr). rewrite firstn_skipn_window by exact Hj. set (wd := firstn ws (skipn (p0 + j) s)).
  unfold lc_for_body. rewrite (step_assign "position" _ _ _ (VN (p0 + j))); [| | reflexivity].
  2: { rewrite Nat2Z.inj_add. apply eval_add_int; [var_off Hfr Hst | var eq_refl]. }
  rewrite (step_assign "ngram" _ _ _ (wv wd)); [| | reflexivity].
  2: { apply eval_join_chars.
       rewrite (eval_slice_str _ _ _ _ (map aa_char s) (Z.of_nat (p0 + j)) (Z.of_nat (p0 + j) + Z.of_nat ws));
         [apply (slice_str_nat aa_char); lia | var_off Hfr Hs | var eq_refl | apply eval_add_int; [var eq_refl | var_off Hfr Hws]]. }
  set (r3 := set "ngram" _ _).
  assert (Hng3 : lookup "ngrams" r3 = VList (wordsv acc)) by (unfold r3; lk; exact Hng).
  assert (En : eval (ENotIn (EVar "ngram") (EVar "ngrams")) r3 = VBool (negb (existsb (laa_eqb2 wd) acc))).
  { rewrite (eval_notin_list _ _ _ (wv wd) (wordsv acc)); [| unfold r3; var eq_refl | var Hng3 | reflexivity]. unfold wordsv. now rewrite member_words. }
  unfold fo_step. rewrite (exec_if_bool _ _ _ _ _ En). destruct (existsb (laa_eqb2 wd) acc); cbn [negb] in *.
  - (* known word *)
    eexists. split; [reflexivity|]. split; [exact Hng3|].
    unfold r3. apply (same_except_sets _ [(_, _); (_, _); (_, _)]); [reflexivity | exact Hfr].
  - (* new word: ngrams.add(ngram) *)
    rewrite (exec_if_bool _ _ _ _ _ En).
    rewrite (exec_append_ok _ _ _ (wordsv acc) (wv wd)); [| exact Hng3 | unfold r3; var eq_refl | reflexivity].
    eexists. split; [reflexivity|]. split; [lk; unfold wordsv; rewrite map_app; reflexivity|].
    unfold r3. apply (same_except_sets _ [(_, _); (_, _); (_, _); (_, _)]); [reflexivity | exact Hfr].
Qed.

Lemma lc_loop p0 r r1 : lookup "sequence" r = wv s -> lookup "step" r = VN p0 -> lookup "wordSize" r = VN ws -> (p0 + w <= N)%nat -> lc_inv r [] r1 ->
  exists r2, MiniPy.run_loop cx_prim fuel "i" lc_for_body (map (fun j => VInt (0 + Z.of_nat j)) (seq 0 (w - ws))) r1 = ONorm r2 /\
    lc_inv r (fo [] (lc_words w ws (firstn w (skipn p0 s)))) r2.
Proof.
  intros Hs Hst Hws Hp H1.
  apply (run_loop_fold (prim := cx_prim) (wfuel := fuel) "i" lc_for_body (fun j => VInt (0 + Z.of_nat j)) (fun j => firstn ws (skipn j (firstn w (skipn p0 s)))) fo_step (lc_inv r)); [| exact H1].
  intros j acc r' Hj Hb. apply in_seq in Hj. destruct (lc_iter p0 r j acc r' Hs Hst Hws Hp ltac:(lia) Hb) as [r'' [E H]].
  exists r''. split; [left; exact E | exact H].
Qed.

(* vmax = min([pow(len(alphabet), wordSize), windowSize - 1 + wordSize]) *)
Lemma lc_vmax_step (alph : list value) l r : (1 <= w)%nat -> lookup "alphabet" r = VList alph -> lookup "wordSize" r = VN ws -> lookup "windowSize" r = VN w ->
  MiniPy.exec_list cx_prim fuel (lc_vmax :: l) r = MiniPy.exec_list cx_prim fuel l (set "vmax" (VN (Nat.min (List.length alph ^ ws) (w - 1 + ws))) r).
Proof.
  intros Hw Hal Hwd Hwsz. rewrite lc_vmax_parts. apply step_assign_list; [| reflexivity].
  rewrite (eval_call1 _ _ _ (VList [VInt (Z.of_nat (List.length alph) ^ Z.of_nat ws); VInt (Z.of_nat w - 1 + Z.of_nat ws)])); [| apply eval_listlit2 | reflexivity].
  - unfold cx_prim. cbn [String.eqb Ascii.eqb Bool.eqb]. f_equal. rewrite Nat2Z.inj_min, Nat2Z.inj_pow. f_equal. lia.
  - rewrite (eval_call2 _ _ _ _ (VN (List.length alph)) (VN ws)); [| apply eval_len_list; var Hal | var Hwd | reflexivity | reflexivity].
    unfold cx_prim. cbn [String.eqb Ascii.eqb Bool.eqb]. now replace (0 <=? Z.of_nat ws) with true by (symmetry; apply Z.leb_le; lia).
  - apply eval_add_int; [apply eval_sub_int; [var Hwsz | reflexivity] | var Hwd].
  - reflexivity.
  - reflexivity.
Qed.

Lemma lc_window (p0 : nat) (arr alph : list value) r : (1 <= w)%nat -> (1 <= Nat.min (k ^ ws) (w - 1 + ws))%nat -> List.length alph = k -> (p0 + w <= N)%nat ->
  at_window s w st "LC_array" [("wordSize"%string, VN ws); ("alphabet"%string, VList alph)] p0 arr r ->
  exists r', exec fuel lc_while_body r = ONorm r' /\
    at_window s w st "LC_array" [("wordSize"%string, VN ws); ("alphabet"%string, VList alph)] (p0 + st)
      (arr ++ [VQ (lc_value k w ws (firstn w (skipn p0 s)))]) r'.
Proof.
  intros Hw Hvm Hk Hp A. pose proof A as (Hst & _ & Hs & Hwsz & _ & Hwd & Hal & _). set (win := firstn w (skipn p0 s)).
  rewrite exec_spine, lc_wparts, !step_const_list, (step_assign_list _ _ _ _ (VList [])), step_const_list by reflexivity.
  rewrite exec_list_cons, exec_for, (eval_range _ _ _ 0 (Z.of_nat w - Z.of_nat ws)); [| reflexivity | apply eval_sub_int; [var Hwsz | var Hwd]].
  replace (Z.to_nat (Z.of_nat w - Z.of_nat ws - 0)) with (w - ws)%nat by lia. cbn [elements].
  destruct (lc_loop p0 r (sets [("ngram"%string, VStr []); ("ngrams"%string, VList []); ("i"%string, VInt 0); ("LC"%string, VInt 0)] r) Hs Hst Hwd Hp) as [r2 [E2 (Hng2 & Hfr)]].
  { split; [rewrite lookup_sets; reflexivity|]. apply same_except_sets; [reflexivity | apply same_except_refl]. }
  cbn [sets] in E2. rewrite E2. fold win in Hng2.
  set (v := List.length (dedup_words (lc_words w ws win))).
  rewrite (step_assign_list "v" _ _ _ (VN v)); [| | reflexivity].
  2: { rewrite (eval_len_list _ _ _ (eq_trans (eval_var _ _) Hng2)). unfold wordsv. now rewrite map_length, fo_length. }
  pose proof A as A2. apply (binds_off lc_scratch _ r r2 Hfr) in A2; [| reflexivity]. destruct A2 as (_ & _ & _ & Hwsz2 & _ & Hwd2 & Hal2 & _).
  rewrite (lc_vmax_step alph _ _ Hw); [| lk; exact Hal2 | lk; exact Hwd2 | lk; exact Hwsz2].
  rewrite Hk. set (vmax := Nat.min (k ^ ws) (w - 1 + ws)).
  rewrite (step_assign_list "LC" _ _ _ (VQ (lc_value k w ws win))); [| | reflexivity].
  2: { rewrite (eval_call2 _ _ _ _ (VN v) (VN vmax)); [| var eq_refl | var eq_refl | reflexivity | reflexivity]. exact (cx_fdiv _ _ Hvm). }
  apply (window_finish cx_prim fuel s w st "LC_array" _ lc_scratch p0 arr r); [reflexivity | reflexivity | exact A | | var eq_refl | reflexivity].
  apply (same_except_sets _ [(_, _); (_, _); (_, _)]); [reflexivity | exact Hfr].
Qed.

(* LC on EVERY residue word, alphabet size, window, step and word size for which the denominator min(k^ws, w-1+ws) is
   positive (with enough loop fuel): window by window, the model's value — the number of DISTINCT words of the window
   (whichever occurrence the set keeps) over that denominator *)
Theorem LC_tie (alph : list value) r : (1 <= w)%nat -> (1 <= st)%nat -> (1 <= Nat.min (k ^ ws) (w - 1 + ws))%nat -> List.length alph = k ->
  (nwin N w st < fuel)%nat ->
  lookup "sequence" r = wv s -> lookup "windowSize" r = VN w -> lookup "stepSize" r = VN st -> lookup "wordSize" r = VN ws ->
  lookup "alphabet" r = VList alph ->
  exec fuel g_LC r = ORet (VList (map (fun win => VQ (lc_value k w ws win)) (windows w st s))).
Proof.
  intros Hw Hst Hvm Hk Hf Hs Hwsz Hss Hwd Hal.
  apply (windows_fun cx_prim fuel s w st "LC_array" [("wordSize"%string, VN ws); ("alphabet"%string, VList alph)] lc_while_body _
           (fun p arr r0 => lc_window p arr alph r0 Hw Hvm Hk)); [reflexivity | exact Hst | exact Hf | reflexivity |].
  exact (conj Hs (conj Hwsz (conj Hss (conj Hwd (conj Hal I))))).
Qed.
End LC.
Print Assumptions LC_tie.

Section CWF.
Variable fuel : nat.
Variable L : Q -> Q.                 (* math.log(p, len(alphabet)): ANY function of p *)
Variable s : list aa.
Variables w st : nat.
Variable alph : list aa.
Local Notation N := (List.length s).

Definition cw_prim (name : string) (args : list value) : value :=
  if String.eqb name "math.log" then match args with [VQ p; VInt _] => VQ (L p) | _ => VErr end else cx_prim name args.

(* one alphabet letter: p = count / w; if p > 0 the accumulator becomes p * log(p) + accumulator *)
Definition cwf_step (acc : value) (c : Z) : value :=
  let p := c # Pos.of_nat w in
  if Qltb 0 p then match as_Q acc with Some a => VQ (Qred (Qred (p * L p) + a)) | None => VErr end else acc.
Definition neg_val (v : value) : value := match v with VInt z => VInt (0 - z) | VQ q => VQ (Qred (0 - q)) | _ => VErr end.
Definition cwf_value (win : list aa) : value := neg_val (fold_left cwf_step (wf_counts alph win) (VInt 0)).

Definition cw_while_body : stmt := Eval vm_compute in while_body (stmt_at 2 g_CWF).
(* the body of  for x in alphabet  *)
Definition cw_for_body : stmt := Eval vm_compute in for_body (stmt_at 2 cw_while_body).
Lemma cw_wparts : spine cw_while_body = [SAssign "CWF" (EConst (VInt 0)); SAssign "window" (ESlice (EVar "sequence") (EVar "step") (EAdd (EVar "step") (EVar "windowSize")));
                               SFor "x" (EVar "alphabet") cw_for_body; SAppend "CWF_array" (ESub (EConst (VInt 0)) (EVar "CWF"));
                               SAssign "step" (EAdd (EVar "step") (EVar "stepSize"))].
Proof. reflexivity. Qed.

Notation alphv l := (map (fun a : aa => wv [a]) l).
Definition cw_scratch : list string := ["CWF"; "window"; "x"; "p"]%string.

(* inside the window win that starts in r: the accumulator is a number *)
Definition cw_inv (win : list aa) (r : env) (acc : value) (r' : env) : Prop :=
  (exists q, numv acc q) /\ lookup "CWF" r' = acc /\ lookup "window" r' = wv win /\ same_except cw_scratch r r'.

Lemma cw_iter win r a acc r1 : (1 <= w)%nat -> lookup "windowSize" r = VN w -> lookup "alphabet" r = VList (alphv alph) -> cw_inv win r acc r1 ->
  exists r', MiniPy.exec cw_prim fuel cw_for_body (set "x" (wv [a]) r1) = ONorm r' /\ cw_inv win r (cwf_step acc (count_aa a win)) r'.
Proof.
  intros Hw Hws Hal ([q0 Hnum] & Hacc & Hwin & Hfr). set (c := count_aa a win). set (p := c # Pos.of_nat w).
  unfold cw_for_body. rewrite (step_assign "p" _ _ _ (VQ p)); [| | reflexivity].
  2: { rewrite (eval_call2 _ _ _ _ (VInt c) (VN w)); [exact (cx_fdiv c w Hw) | | var_off Hfr Hws | reflexivity | reflexivity].
       rewrite (eval_count_char _ _ _ (map aa_char win) (aa_char a)); [f_equal; apply count_substr1_aa_char | var Hwin | var eq_refl]. }
  set (r2 := set "p" _ _).
  assert (Tp : truthy (MiniPy.eval cw_prim (EGt (EVar "p") (EConst (VInt 0))) r2) = VBool (Qltb 0 p)).
  { cbn [MiniPy.eval]. unfold r2. lk. reflexivity. }
  unfold cwf_step. fold c. fold p. rewrite (exec_if_truthy _ _ _ _ _ Tp). destruct (Qltb 0 p).
  - (* p > 0: CWF = p * math.log(p, len(alphabet)) + CWF *)
    assert (Em : MiniPy.eval cw_prim (EMul (EVar "p") (ECall "math.log" [EVar "p"; ELen (EVar "alphabet")])) r2 = VQ (Qred (p * L p))).
    { apply eval_mul_Q; [unfold r2; var eq_refl|].
      rewrite (eval_call2 _ _ _ _ (VQ p) (VN (List.length (alphv alph)))); [reflexivity | unfold r2; var eq_refl | | reflexivity | reflexivity].
      apply eval_len_list. unfold r2. var_off Hfr Hal. }
    rewrite (numv_asQ _ _ Hnum), (exec_assign_ok "CWF" _ _ (VQ (Qred (Qred (p * L p) + q0)))); [| | reflexivity].
    2: { destruct Hnum.
         - apply eval_add_Q_int; [exact Em | unfold r2; var Hacc].
         - apply eval_add_Q; [exact Em | unfold r2; var Hacc]. }
    eexists. split; [reflexivity|]. split; [eexists; apply NQ|]. split; [lk; reflexivity|]. split; [unfold r2; lk; exact Hwin|].
    unfold r2. apply (same_except_sets _ [(_, _); (_, _); (_, _)]); [reflexivity | exact Hfr].
  - eexists. split; [reflexivity|]. split; [exists q0; exact Hnum|]. split; [unfold r2; lk; exact Hacc|]. split; [unfold r2; lk; exact Hwin|].
    unfold r2. apply (same_except_sets _ [(_, _); (_, _)]); [reflexivity | exact Hfr].
Qed.

Lemma cw_loop win r r1 : (1 <= w)%nat -> lookup "windowSize" r = VN w -> lookup "alphabet" r = VList (alphv alph) -> cw_inv win r (VInt 0) r1 ->
  exists r2, MiniPy.run_loop cw_prim fuel "x" cw_for_body (alphv alph) r1 = ONorm r2 /\
    cw_inv win r (fold_left cwf_step (wf_counts alph win) (VInt 0)) r2.
Proof.
  intros Hw Hws Hal H1.
  apply (run_loop_fold (prim := cw_prim) (wfuel := fuel) "x" cw_for_body (fun a : aa => wv [a]) (fun a => count_aa a win) cwf_step (cw_inv win r)); [| exact H1].
  intros a acc r' _ Hb. destruct (cw_iter win r a acc r' Hw Hws Hal Hb) as [r'' [E H]]. exists r''. split; [left; exact E | exact H].
Qed.

Lemma cw_window (p0 : nat) (arr : list value) r : (1 <= w)%nat -> (p0 + w <= N)%nat ->
  at_window s w st "CWF_array" [("alphabet"%string, VList (alphv alph))] p0 arr r ->
  exists r', MiniPy.exec cw_prim fuel cw_while_body r = ONorm r' /\
    at_window s w st "CWF_array" [("alphabet"%string, VList (alphv alph))] (p0 + st) (arr ++ [cwf_value (firstn w (skipn p0 s))]) r'.
Proof.
  intros Hw Hp A. pose proof A as (Hst & _ & Hs & Hws & _ & Hal & _). set (win := firstn w (skipn p0 s)).
  rewrite exec_spine, cw_wparts, step_const_list by reflexivity.
  rewrite (step_assign_list "window" _ _ _ (wv win)); [| | reflexivity].
  2: { rewrite (eval_slice_str _ _ _ _ (map aa_char s) (Z.of_nat p0) (Z.of_nat p0 + Z.of_nat w));
         [apply (slice_str_nat aa_char); exact Hp | var Hs | var Hst | apply eval_add_int; [var Hst | var Hws]]. }
  rewrite exec_list_cons, (exec_for_list _ _ _ _ (alphv alph)); [| var Hal].
  destruct (cw_loop win r (sets [("window"%string, wv win); ("CWF"%string, VInt 0)] r) Hw Hws Hal) as [r2 [E2 ([q Hnum] & Hc2 & _ & Hfr)]].
  { split; [exists (inject_Z 0); apply NI|]. split; [rewrite lookup_sets; reflexivity|]. split; [rewrite lookup_sets; reflexivity|].
    apply same_except_sets; [reflexivity | apply same_except_refl]. }
  cbn [sets] in E2. rewrite E2.
  apply (window_finish cw_prim fuel s w st "CWF_array" _ cw_scratch p0 arr r _ _ (cwf_value win)); [reflexivity | reflexivity | exact A | exact Hfr | |].
  - (* 0 - CWF, on an int or a rational *)
    unfold cwf_value. rewrite <- (eval_var (prim := cw_prim)) in Hc2. revert Hc2. destruct Hnum as [z|q]; intros Hc2.
    + apply eval_sub_int; [reflexivity | exact Hc2].
    + apply (eval_sub_num_Q (EConst (VInt 0)) _ _ (VInt 0) _ q eq_refl (NI 0) Hc2).
  - unfold cwf_value. destruct Hnum; reflexivity.
Qed.

(* CWF on EVERY residue word, alphabet, window >= 1 and step >= 1, WHATEVER math.log returns: per window, minus the sum —
   accumulated letter by letter in the alphabet's order — of p * log(p) over the letters whose fraction p = count / w in
   the window is positive (the counts are the model's wf_counts; the entropy value itself is a real number, Proofs/Entropy.v) *)
Theorem CWF_tie r : (1 <= w)%nat -> (1 <= st)%nat -> (nwin N w st < fuel)%nat ->
  lookup "sequence" r = wv s -> lookup "windowSize" r = VN w -> lookup "stepSize" r = VN st -> lookup "alphabet" r = VList (alphv alph) ->
  MiniPy.exec cw_prim fuel g_CWF r = ORet (VList (map cwf_value (windows w st s))).
Proof.
  intros Hw Hst Hf Hs Hws Hss Hal.
  apply (windows_fun cw_prim fuel s w st "CWF_array" [("alphabet"%string, VList (alphv alph))] cw_while_body _ (fun p arr r0 => cw_window p arr r0 Hw));
    [reflexivity | exact Hst | exact Hf | reflexivity | exact (conj Hs (conj Hws (conj Hss (conj Hal I))))].
Qed.

(* what the accumulated value is: -(sum over the letters with p > 0 of p * log p), up to rational equality *)
Fixpoint cwf_sum (counts : list Z) : Q :=
  match counts with
  | [] => 0
  | c :: cs => let p := c # Pos.of_nat w in (if Qltb 0 p then p * L p else 0) + cwf_sum cs
  end.
Lemma fold_cwf_sum counts : forall acc a, numv acc a ->
  exists q, as_Q (neg_val (fold_left cwf_step counts acc)) = Some q /\ (q == - (cwf_sum counts + a))%Q.
Proof.
  induction counts as [|c cs IH]; intros acc a Hn; cbn [fold_left cwf_sum].
  - destruct Hn as [z|q].
    + exists (inject_Z (0 - z)). split; [reflexivity|]. unfold Qeq, Qopp, Qplus, inject_Z. cbn. lia.
    + exists (Qred (0 - q)). split; [reflexivity|]. rewrite Qred_correct. ring.
  - unfold cwf_step at 2. destruct (Qltb 0 (c # Pos.of_nat w)).
    + rewrite (numv_asQ _ _ Hn). destruct (IH _ _ (NQ (Qred (Qred ((c # Pos.of_nat w) * L (c # Pos.of_nat w)) + a)))) as [q [E1 E2]].
      exists q. split; [exact E1|]. rewrite E2, !Qred_correct. ring.
    + destruct (IH acc a Hn) as [q [E1 E2]]. exists q. split; [exact E1|]. rewrite E2. ring.
Qed.
Theorem cwf_value_is_entropy win : exists q, as_Q (cwf_value win) = Some q /\ (q == - cwf_sum (wf_counts alph win))%Q.
Proof.
  destruct (fold_cwf_sum (wf_counts alph win) (VInt 0) _ (NI 0)) as [q [E1 E2]].
  exists q. split; [exact E1|]. rewrite E2. change (inject_Z 0) with 0%Q. ring.
Qed.
End CWF.
Print Assumptions CWF_tie.
Print Assumptions cwf_value_is_entropy.

(* the translated functions run; the hypotheses are satisfiable *)
Definition ex_seq : list aa := [Lys; Glu; Lys; Glu; Gly; Gly; Lys; Ala].
Definition ex_env (extra : env) : env :=
  [("sequence"%string, wv ex_seq); ("windowSize"%string, VInt 4); ("stepSize"%string, VInt 2)] ++ extra.
Example LZW_runs : MiniPy.exec cx_prim 10 g_LZW (ex_env []) = ORet (VList (map (fun win => VQ (lzw_value 4 win)) (windows 4 2 ex_seq)))
                   /\ map (lzw_value 4) (windows 4 2 ex_seq) = [3 # 4; 4 # 4; 4 # 4]%Q.
Proof. split; vm_compute; reflexivity. Qed.
Example LC_runs : MiniPy.exec cx_prim 10 g_LC (ex_env [("wordSize"%string, VInt 2); ("alphabet"%string, VList [VNone; VNone; VNone])]) =
                  ORet (VList (map (fun win => VQ (lc_value 3 4 2 win)) (windows 4 2 ex_seq)))
                  /\ map (lc_value 3 4 2) (windows 4 2 ex_seq) = [2 # 5; 2 # 5; 2 # 5]%Q.
Proof. split; vm_compute; reflexivity. Qed.
Example CWF_runs : let L := fun p : Q => (p - 1)%Q in
  MiniPy.exec (cw_prim L) 10 g_CWF (ex_env [("alphabet"%string, VList (map (fun a : aa => wv [a]) [Lys; Glu; Gly]))]) =
  ORet (VList (map (cwf_value L 4 [Lys; Glu; Gly]) (windows 4 2 ex_seq))).
Proof. vm_compute. reflexivity. Qed.
