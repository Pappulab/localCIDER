(* Tie (C03) — SEMANTIC: Sequence.__permutant_from_reduced_seq (the permutant returned with delta-max), translated from the
   working tree on every run into a Core.MiniPy term: the three filtering comprehensions over the parent's residues, the
   sanity check, and the loop that refills the +/-/0 arrangement class by class in order of appearance.  For EVERY parent
   sequence and EVERY arrangement that does not ask for more residues of a class than the parent has, the translated code
   returns exactly Model.Delta.permutant.  str(x) is the primitive "str" (the identity on strings), sum([...]) "sum". *)
From Coq Require Import List String Ascii QArith Lia.
From Coq Require Import Permutation.
From LC Require Import Core.Residue Core.Lists Core.MiniPy Core.MiniPyData Core.MiniPyExec Spec.Delta Model.Delta Proofs.Permutant Gen.GMiniPy.
Import ListNotations.
Local Open Scope Z_scope.

Definition pm_prim (name : string) (args : list value) : value :=
  if String.eqb name "str" then match args with [VStr s] => VStr s | _ => VErr end
  else if String.eqb name "sum" then match args with [VList [VInt a; VInt b; VInt c]] => VInt (a + b + c) | _ => VErr end
  else VErr.
Local Notation exec := (MiniPy.exec pm_prim 0).
Local Notation eval := (MiniPy.eval pm_prim).

Lemma str_call e r s : eval e r = VStr s -> eval (ECall "str" [e]) r = VStr s.
Proof. intros H. rewrite (eval_call1 _ _ _ (VStr s) H eq_refl). reflexivity. Qed.

Definition trit_char (z : Z) : ascii := if 0 <? z then "+"%char else if z <? 0 then "-"%char else "0"%char.
Definition res_val (a : aa) : value := VStr [aa_char a].

Lemma filter_comp (cond : expr) (f : aa -> bool) r :
  (forall a k, truthy (eval cond (set "res" (res_val a) (set "$i" (VInt k) r))) = VBool (f a)) ->
  forall l k, enum_list pm_prim "$i" "res" cond (EVar "res") k (map (fun c => VStr [c]) (map aa_char l)) r = VList (map res_val (filter f l)).
Proof.
  intros Hc l k. rewrite map_map. exact (enum_list_filter "$i" "res" cond res_val f r (fun _ => eq_refl) Hc l k).
Qed.

Definition is_pos (a : aa) : bool := 0 <? chg a.
Definition is_neg (a : aa) : bool := chg a <? 0.
Definition is_neu (a : aa) : bool := chg a =? 0.

Lemma cond_pos r a k : truthy (eval (EIn (EVar "res") (EListLit [EConst (VStr (list_ascii_of_string "R")); EConst (VStr (list_ascii_of_string "K"))]))
                               (set "res" (res_val a) (set "$i" (VInt k) r))) = VBool (is_pos a).
Proof. lazy beta iota zeta delta [MiniPy.eval]. rewrite lookup_set_eq. destruct a; reflexivity. Qed.
Lemma cond_neg r a k : truthy (eval (EIn (EVar "res") (EListLit [EConst (VStr (list_ascii_of_string "D")); EConst (VStr (list_ascii_of_string "E"))]))
                               (set "res" (res_val a) (set "$i" (VInt k) r))) = VBool (is_neg a).
Proof. lazy beta iota zeta delta [MiniPy.eval]. rewrite lookup_set_eq. destruct a; reflexivity. Qed.
Lemma cond_neu r a k : truthy (eval (ENotIn (EVar "res") (EListLit [EConst (VStr (list_ascii_of_string "D")); EConst (VStr (list_ascii_of_string "E"));
                                                                     EConst (VStr (list_ascii_of_string "R")); EConst (VStr (list_ascii_of_string "K"))]))
                               (set "res" (res_val a) (set "$i" (VInt k) r))) = VBool (is_neu a).
Proof. lazy beta iota zeta delta [MiniPy.eval]. rewrite lookup_set_eq. destruct a; reflexivity. Qed.

Lemma three_classes (l : list aa) :
  (List.length (filter is_pos l) + List.length (filter is_neg l) + List.length (filter is_neu l) = List.length l)%nat.
Proof.
  induction l as [|a l IH]; [reflexivity|]. cbn [filter]. unfold is_pos at 1, is_neg at 1, is_neu at 1.
  destruct (Z.ltb_spec 0 (chg a)), (Z.ltb_spec (chg a) 0), (Z.eqb_spec (chg a) 0); cbn [List.length]; lia.
Qed.

Definition pm_spine : list stmt := Eval vm_compute in spine g_permutant.
Definition pm_body : stmt := Eval vm_compute in match nth 8 pm_spine SSkip with SFor _ _ b => b | _ => SSkip end.

(* outSeq = outSeq + str(L[C]); C = C + 1 : what each branch of the loop body does with its own stack L and counter C *)
Definition take (L C : string) : stmt :=
  SSeq (SAssign "outSeq" (EAdd (EVar "outSeq") (ECall "str" [EIndex (EVar L) (EVar C)])))
       (SAssign C (EAdd (EVar C) (EConst (VInt 1)))).

Lemma res_is c d r : lookup "res" r = VStr [d] -> truthy (eval (EEq (EVar "res") (EConst (VStr [c]))) r) = VBool (Ascii.eqb d c).
Proof. intros H. rewrite (eval_eq_str _ _ _ [d] [c]); [now rewrite char_eq | exact H | reflexivity]. Qed.

Lemma pm_body_class z r : lookup "res" r = VStr [trit_char z] ->
  exec pm_body r = exec (if 0 <? z then take "posRes" "pos_counter" else if z <? 0 then take "negRes" "neg_counter" else take "neutRes" "neut_counter") r.
Proof.
  unfold pm_body, trit_char. intros H. destruct (0 <? z); [|destruct (z <? 0)].
  - exact (exec_if_true _ _ _ _ (res_is "+" _ _ H)).
  - rewrite (exec_if_false _ _ _ _ (res_is "+" _ _ H)). exact (exec_if_true _ _ _ _ (res_is "-" _ _ H)).
  - rewrite (exec_if_false _ _ _ _ (res_is "+" _ _ H)). exact (exec_if_false _ _ _ _ (res_is "-" _ _ H)).
Qed.

Lemma take_next L C l c x acc r :
  String.eqb C "outSeq" = false ->
  lookup L r = VList (map res_val l) -> lookup C r = VInt (Z.of_nat c) -> lookup "outSeq" r = VStr acc ->
  nth_error l c = Some x ->
  exec (take L C) r = ONorm (set C (VInt (Z.of_nat (S c))) (set "outSeq" (VStr (acc ++ [aa_char x])) r)).
Proof.
  intros HC HL Hc Ho Hx. unfold take.
  assert (Ei : eval (EIndex (EVar L) (EVar C)) r = res_val x).
  { apply (eval_index_list _ _ _ (map res_val l) (Z.of_nat c)); [exact HL | exact Hc | apply index_val_map_some, Hx]. }
  rewrite (step_assign _ _ _ _ (VStr (acc ++ [aa_char x]))); [| apply eval_add_str; [exact Ho | apply str_call; exact Ei] | reflexivity].
  apply exec_assign_ok; [|reflexivity].
  rewrite (eval_add_int _ _ _ (Z.of_nat c) 1); [f_equal; lia | rewrite eval_var, lookup_set_neq by exact HC; exact Hc | reflexivity].
Qed.

Section Loop.
Variables (PS NS ZS : list aa).
Definition need (cand : list Z) (f : Z -> bool) : nat := List.length (filter f cand).
Definition tpos (z : Z) : bool := 0 <? z.
Definition tneg (z : Z) : bool := negb (0 <? z) && (z <? 0).
Definition tneu (z : Z) : bool := negb (0 <? z) && negb (z <? 0).

(* the refilling loop, from any counters *)
Lemma refill_loop : forall (cand : list Z) (pc nc zc : nat) (acc : list ascii) r,
  lookup "posRes" r = VList (map res_val PS) -> lookup "negRes" r = VList (map res_val NS) -> lookup "neutRes" r = VList (map res_val ZS) ->
  lookup "pos_counter" r = VInt (Z.of_nat pc) -> lookup "neg_counter" r = VInt (Z.of_nat nc) -> lookup "neut_counter" r = VInt (Z.of_nat zc) ->
  lookup "outSeq" r = VStr acc ->
  (pc + need cand tpos <= List.length PS)%nat -> (nc + need cand tneg <= List.length NS)%nat ->
  (zc + need cand tneu <= List.length ZS)%nat ->
  exists r', MiniPy.run_loop pm_prim 0 "res" pm_body (map (fun c => VStr [c]) (map trit_char cand)) r = ONorm r' /\
    lookup "outSeq" r' = VStr (acc ++ map aa_char (refill cand (skipn pc PS) (skipn nc NS) (skipn zc ZS))).
Proof.
  induction cand as [|z cand IH]; intros pc nc zc acc r Hp Hn Hz Hpc Hnc Hzc Ho Bp Bn Bz.
  - exists r. cbn [map MiniPy.run_loop refill]. rewrite app_nil_r. auto.
  - cbn [map refill]. rewrite run_loop_cons, (pm_body_class z) by apply lookup_set_eq.
    unfold need, tpos, tneg, tneu in IH, Bp, Bn, Bz. cbn [filter] in Bp, Bn, Bz.
    destruct (0 <? z); [| destruct (z <? 0)]; cbn [negb andb List.length] in Bp, Bn, Bz.
    + destruct (skipn_next PS pc) as [x [Hx ->]]; [lia|].
      rewrite (take_next "posRes" "pos_counter" PS pc x acc) by (reflexivity || (lk; assumption)).
      cbn [map]. change (aa_char x :: map aa_char ?t) with ([aa_char x] ++ map aa_char t). rewrite app_assoc.
      apply IH; lk; first [assumption | reflexivity | lia].
    + destruct (skipn_next NS nc) as [x [Hx ->]]; [lia|].
      rewrite (take_next "negRes" "neg_counter" NS nc x acc) by (reflexivity || (lk; assumption)).
      cbn [map]. change (aa_char x :: map aa_char ?t) with ([aa_char x] ++ map aa_char t). rewrite app_assoc.
      apply IH; lk; first [assumption | reflexivity | lia].
    + destruct (skipn_next ZS zc) as [x [Hx ->]]; [lia|].
      rewrite (take_next "neutRes" "neut_counter" ZS zc x acc) by (reflexivity || (lk; assumption)).
      cbn [map]. change (aa_char x :: map aa_char ?t) with ([aa_char x] ++ map aa_char t). rewrite app_assoc.
      apply IH; lk; first [assumption | reflexivity | lia].
Qed.
End Loop.

Lemma comp_eval cond f r parent : lookup "parentSeqObj.seq" r = VStr (map aa_char parent) ->
  (forall a k, truthy (eval cond (set "res" (res_val a) (set "$i" (VInt k) r))) = VBool (f a)) ->
  eval (EEnumFilter "$i" "res" cond (EVar "res") (EVar "parentSeqObj.seq")) r = VList (map res_val (filter f parent)).
Proof. intros Hp Hc. apply (eval_enumfilter_filter _ _ _ _ res_val f parent r (seq_val parent)); [exact Hp | apply elements_seq_val | reflexivity | exact Hc]. Qed.

Lemma sum3 a b c r x y z : eval a r = VInt x -> eval b r = VInt y -> eval c r = VInt z ->
  eval (ECall "sum" [EListLit [a; b; c]]) r = VInt (x + y + z).
Proof.
  intros Ha Hb Hc. rewrite (eval_call1 _ _ _ (VList [VInt x; VInt y; VInt z])); [reflexivity | | reflexivity].
  apply eval_listlit_all. repeat constructor; assumption.
Qed.

(* everything after the three comprehensions, for any three stacks whose sizes add up to the parent's length
   (so the sanity check does not fire) *)
Lemma pm_rest PS NS ZS (parent : list aa) cand r :
  lookup "posRes" r = VList (map res_val PS) -> lookup "negRes" r = VList (map res_val NS) -> lookup "neutRes" r = VList (map res_val ZS) ->
  lookup "parentSeqObj.seq" r = VStr (map aa_char parent) -> lookup "self.seq" r = VStr (map trit_char cand) ->
  (List.length PS + List.length NS + List.length ZS = List.length parent)%nat ->
  (need cand tpos <= List.length PS)%nat -> (need cand tneg <= List.length NS)%nat -> (need cand tneu <= List.length ZS)%nat ->
  MiniPy.exec_list pm_prim 0 (skipn 3 pm_spine) r = ORet (VStr (map aa_char (refill cand PS NS ZS))).
Proof.
  intros Hp Hn Hz Hq Hs T Bp Bn Bz. unfold pm_spine. cbn [skipn]. rewrite (step_if_list _ _ _ _ _ false).
  2:{ erewrite eval_ne_int; [| apply sum3; apply eval_len_list; eassumption | apply eval_len_str; exact Hq].
      rewrite !map_length. cbn [truthy]. now rewrite (proj2 (Z.eqb_eq _ _)) by lia. }
  rewrite step_skip_list, (step_const_list _ (VStr [])) by reflexivity. do 3 rewrite (step_const_list _ (VInt 0)) by reflexivity.
  set (r4 := set "neut_counter" _ _).
  assert (Hs4 : lookup "self.seq" r4 = VStr (map trit_char cand)) by (unfold r4; lk; exact Hs).
  rewrite exec_list_cons, (exec_for_str _ _ _ _ (map trit_char cand)) by exact Hs4.
  change (SIf (EEq (EVar "res") (EConst (VStr ["+"%char]))) _ _) with pm_body.
  destruct (refill_loop PS NS ZS cand 0 0 0 [] r4) as [r5 [E5 H5]]; try (unfold r4; lk; assumption || reflexivity).
  rewrite E5. exact (step_return_list (EVar "outSeq") [] r5 _ H5 eq_refl).
Qed.

Theorem permutant_tie (parent : list aa) (cand : list Z) r :
  lookup "parentSeqObj.seq" r = VStr (map aa_char parent) -> lookup "self.seq" r = VStr (map trit_char cand) ->
  (need cand tpos <= List.length (filter is_pos parent))%nat -> (need cand tneg <= List.length (filter is_neg parent))%nat ->
  (need cand tneu <= List.length (filter is_neu parent))%nat ->
  exec g_permutant r = ORet (VStr (map aa_char (permutant parent cand))).
Proof.
  intros Hp Hs Bp Bn Bz. rewrite exec_spine. change (spine g_permutant) with pm_spine. unfold pm_spine.
  rewrite (step_assign_list _ _ _ _ _ (comp_eval _ is_pos r parent Hp (cond_pos r)) eq_refl). set (r1 := set "posRes" _ r).
  assert (Hp1 : lookup "parentSeqObj.seq" r1 = VStr (map aa_char parent)) by (unfold r1; lk; exact Hp).
  rewrite (step_assign_list _ _ _ _ _ (comp_eval _ is_neg r1 parent Hp1 (cond_neg r1)) eq_refl). set (r2 := set "negRes" _ r1).
  assert (Hp2 : lookup "parentSeqObj.seq" r2 = VStr (map aa_char parent)) by (unfold r2; lk; exact Hp1).
  rewrite (step_assign_list _ _ _ _ _ (comp_eval _ is_neu r2 parent Hp2 (cond_neu r2)) eq_refl).
  apply (pm_rest _ _ _ parent); unfold r2, r1; lk; try assumption; try reflexivity. apply three_classes.
Qed.
Print Assumptions permutant_tie.

Lemma need_counts cand : Z.of_nat (need cand tpos) = npos cand /\ Z.of_nat (need cand tneg) = nneg cand /\ Z.of_nat (need cand tneu) = nneut cand.
Proof.
  unfold nneut, len, npos, nneg, need. induction cand as [|z cand [I1 [I2 I3]]]; [repeat split|].
  cbn [filter cnt List.length]. unfold tpos, tneg, tneu, isposb, isnegb in *.
  destruct (0 <? z) eqn:E1; destruct (z <? 0) eqn:E2; cbn [negb andb List.length]; repeat split; try lia;
    apply Z.ltb_lt in E1; apply Z.ltb_lt in E2; lia.
Qed.

(* with Proofs/Permutant.v (permutant_perm, permutant_pat): when the arrangement has the parent's class counts the string the
   translated code returns is a rearrangement of the parent whose charge pattern is the arrangement *)
Corollary permutant_code_rearranges (parent : list aa) (cand : list Z) r :
  lookup "parentSeqObj.seq" r = VStr (map aa_char parent) -> lookup "self.seq" r = VStr (map trit_char cand) ->
  Forall trit cand -> comp cand = comp (pat parent) ->
  exists out, exec g_permutant r = ORet (VStr (map aa_char out)) /\ Permutation out parent /\ pat out = cand.
Proof.
  intros Hp Hs Ht Hc. exists (permutant parent cand). split; [| split; [apply permutant_perm; assumption | apply permutant_pat; assumption]].
  destruct (need_counts cand) as [N1 [N2 N3]]. destruct (pat_counts parent) as [P1 [P2 _]].
  pose proof (three_classes parent) as T3. unfold comp in Hc. injection Hc as H1 H2 H3.
  assert (L : len (pat parent) = len parent) by (unfold len, pat; now rewrite map_length).
  unfold nneut in H3 at 2. unfold len in *. unfold is_pos, is_neg, is_neu in *.
  apply permutant_tie; try assumption; unfold is_pos, is_neg, is_neu; lia.
Qed.
Print Assumptions permutant_code_rearranges.

Example permutant_runs :
  exec g_permutant [("parentSeqObj.seq"%string, VStr (list_ascii_of_string "GEKDR")); ("self.seq"%string, VStr (list_ascii_of_string "+0-+-"))]
  = ORet (VStr (list_ascii_of_string "KGERD")).
Proof. vm_compute. reflexivity. Qed.
