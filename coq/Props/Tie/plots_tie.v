(* Tie (C19): the polygons handed to plt.fill are the specified regions 1-5 (vertex by vertex); every
   show_/save_ entry point of SequenceParameters and plots forwards coordinates, label(s), title, axis
   limits (and getFig / filename) to the like-named parameter of the plotting function it calls. *)
From Coq Require Import List ZArith Bool.
From LC Require Import Spec.Polygons Model.PlotCheck Gen.GPlot.
Import ListNotations.

Lemma polygons_tie :
  Nat.eqb (List.length g_dp_polygons) 5 &&
  forallb (fun k => pts_eqb (nth (Z.to_nat (k - 1)) g_dp_polygons []) (poly k)) [1; 2; 3; 4; 5]%Z = true.
Proof. vm_compute. reflexivity. Qed.

Lemma forwarding_tie : forallb row_ok g_forwarding = true /\ (30 <= List.length g_forwarding)%nat.
Proof. split; [vm_compute; reflexivity | vm_compute; repeat constructor]. Qed.

Lemma plot_inner_tie : g_plot_inner_ok = true.
Proof. reflexivity. Qed.
