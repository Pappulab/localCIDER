(* Tie (C16) — SEMANTIC: Sequence.kappa_at_maxPhos, translated from the working tree on every run (list(str), item
   assignment by index, "".join, construction of a FRESH Sequence from the string and its kappa()), for EVERY sequence,
   EVERY in-range site list and ANY kappa function: kappa of the sequence with E at exactly the stored sites. *)
From Coq Require Import List String Ascii QArith.
From LC Require Import Core.Residue Core.MiniPy Core.MiniPyData Core.MiniPyExec Model.Phospho Proofs.Phospho Gen.GMiniPy.
Import ListNotations.
Definition sites_val (l : list nat) : value := VList (map (fun i => VInt (Z.of_nat i)) l).

Section KM.
Variable s : list aa.                 (* the object's sequence *)
Variable kap : list ascii -> Q.       (* kappa of a sequence given as a string: ANY function *)
Definition km_prim (name : string) (args : list value) : value :=
  if String.eqb name "kappa" then match args with [] => VQ (kap (map aa_char s)) | _ => VErr end
  else if String.eqb name "Sequence" then match args with [VStr t] => VStr t | _ => VErr end
  else if String.eqb name ".kappa" then match args with [VStr t] => VQ (kap t) | _ => VErr end
  else VErr.
Local Notation exec := (MiniPy.exec km_prim 0).
Local Notation run_loop := (MiniPy.run_loop km_prim 0).

Definition km_env (sites : list nat) (newseq pos obj : value) : env :=
  [("self"%string, VNone); ("self.seq"%string, VStr (map aa_char s)); ("self.phosphosites"%string, sites_val sites);
   ("newseq"%string, newseq); ("pos"%string, pos); ("newseqObj"%string, obj)].

Local Notation marked := (Proofs.Phospho.marked s).

Definition km_else : stmt := Eval vm_compute in if_else g_kappa_at_maxPhos.
Definition km_body : stmt := SSetItem "newseq" (EVar "pos") (EConst (VStr ["E"%char])).
Lemma km_top : g_kappa_at_maxPhos = SIf (EEq (ELen (EVar "self.phosphosites")) (EConst (VInt 0))) (SReturn (ECall "kappa" [])) km_else.
Proof. reflexivity. Qed.
Lemma km_parts : spine km_else = [SAssign "newseq" (EListOf (EVar "self.seq")); SFor "pos" (EVar "self.phosphosites") km_body;
                                  SAssign "newseq" (EJoin [] (EVar "newseq")); SAssign "newseqObj" (ECall "Sequence" [EVar "newseq"]);
                                  SReturn (ECall ".kappa" [EVar "newseqObj"])].
Proof. reflexivity. Qed.

Lemma km_loop sites all obj : (forall i, In i sites -> (i < List.length s)%nat) -> forall done pos,
  exists pos', run_loop "pos" km_body (ints sites) (km_env all (VList (marked done)) pos obj) =
               ONorm (km_env all (VList (marked (done ++ sites))) pos' obj).
Proof.
  induction sites as [|i sites IH]; intros Hr done pos; cbn [map].
  - exists pos. now rewrite app_nil_r.
  - rewrite run_loop_cons. unfold km_body at 1.
    rewrite exec_setitem_list with (l := marked done) (i := Z.of_nat i) (v := VStr ["E"%char]) (l' := marked (done ++ [i]))
      by (reflexivity || (apply list_set_marked, Hr; now left)).
    destruct (IH (fun j Hj => Hr j (or_intror Hj)) (done ++ [i]) (VN i)) as [pos' E]. exists pos'.
    rewrite <- app_assoc in E. exact E.
Qed.

(* kappa after phosphorylation, for EVERY sequence, EVERY in-range site list and ANY kappa function: kappa of the
   sequence with E at exactly the stored sites (a fresh Sequence built from that string: nothing of the parent's cached
   delta-max or charge pattern is passed on) *)
Theorem kappa_at_maxPhos_tie sites : (forall i, In i sites -> (i < List.length s)%nat) ->
  exec g_kappa_at_maxPhos (km_env sites VNone VNone VNone) =
  ORet (VQ (kap (map aa_char (phosphoseq {| pseq := s; psites := sites |})))).
Proof.
  intros Hr. rewrite km_top. destruct sites as [|i0 sites0] eqn:Es.
  - rewrite exec_if_true by reflexivity. unfold phosphoseq. cbn [pseq psites]. rewrite phosphoseq_no_sites. reflexivity.
  - rewrite exec_if_false by reflexivity. rewrite <- Es in *. clear Es. set (t := map aa_char (phosphoseq {| pseq := s; psites := sites |})).
    rewrite exec_spine, km_parts.
    rewrite step_assign_list with (v := VList (marked [])) by (rewrite marked_chars, phosphoseq_no_sites; reflexivity).
    destruct (km_loop sites sites VNone Hr [] VNone) as [pos' E].
    rewrite step_norm_list with (r' := km_env sites (VList (marked sites)) pos' VNone)
      by (rewrite exec_for_list with (l := ints sites) by reflexivity; exact E).
    rewrite step_assign_list with (v := VStr t)
      by (reflexivity || (apply eval_join_list with (l := marked sites); [reflexivity | rewrite marked_chars; apply join_chars])).
    rewrite step_assign_list with (v := VStr t) by reflexivity.
    apply step_return_list; reflexivity.
Qed.
End KM.
Print Assumptions kappa_at_maxPhos_tie.
