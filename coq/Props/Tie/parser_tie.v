(* Tie (C14): parser statement shapes present in the source; the digit string is 0-9. *)
From Coq Require Import List String.
From LC Require Import Gen.GParams.
Local Open Scope string_scope.
Lemma parser_shape_tie : g_parser_shape_ok = true /\ g_parser_digits = "0123456789".
Proof. split; reflexivity. Qed.
