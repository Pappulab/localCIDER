(* Tie (C14) — SEMANTIC: the bodies of SequenceFileParser.parseSeqFile and __final_validation, translated from the working
   tree into Core.MiniPy terms on every run, are proved equal to Model.Parser for EVERY file: __final_validation on any
   string; parseSeqFile on any list of lines (its two method calls interpreted by the functions their own ties
   establish: minipy_validseq_tie, final_validation_tie); and, through readlines_same, on the text of any file:
   parseSeqFile(readlines(text)) = Model.Parser.parse text.  open()/readlines() are modelled (universal newlines). *)
From Coq Require Import List String Ascii ZArith Lia.
From LC Require Import Core.Residue Core.MiniPy Core.MiniPyData Core.MiniPyExec Model.Parser Proofs.Parser Gen.GMiniPy.
Import ListNotations.
Local Open Scope Z_scope.

(* Running the interpreter.  Only the left side of the goal is evaluated: the model on the right tests abstract
   characters with Ascii.eqb, which the comparison of variable names has to unfold.  A body is run one statement at a
   time ([exec_spine], [exec_list_cons]); what is still to run stays folded behind [exec_list].  A test or a call that
   evaluation cannot decide is left standing at the head and is decided by a case distinction before the next statement
   runs, so that nothing is computed under an undecided test. *)
Ltac mp := etransitivity;
  [lazy beta iota zeta delta [MiniPy.exec MiniPy.eval lookup set String.eqb Ascii.eqb Bool.eqb truthy v_not cmp_int bad2
                              is_bad as_Q existsb veqb orb list_ascii_of_string]; reflexivity|].

Local Notation star := ("*"%char).
(* SequenceFileParser.__final_validation, on ANY string *)
Definition fv_str (s : list ascii) : option (list ascii) :=
  let n := count_substr1 star s in
  if n =? 0 then Some s
  else if n >? 1 then None
  else match rev s with
       | c :: r => if Ascii.eqb c star then Some (rev r) else None
       | [] => None
       end.

Definition fv_env (s : list ascii) (n : value) : env :=
  [("self"%string, VNone); ("seq"%string, VStr s); ("number_of_asterisk"%string, n)].

Theorem final_validation_tie s :
  MiniPy.exec noprim 0 g_final_validation (fv_env s VNone) = match fv_str s with Some w => ORet (VStr w) | None => ORaise end.
Proof.
  unfold g_final_validation, fv_str, fv_env. rewrite exec_spine. cbn [spine].
  rewrite exec_list_cons. mp. set (n := count_substr1 star s).
  rewrite exec_list_cons. mp. destruct (n =? 0) eqn:E0; [reflexivity|]. cbv beta iota.
  rewrite exec_list_cons. mp. destruct (n >? 1); [reflexivity|]. cbv beta iota.
  destruct s as [|c0 s0 _] using rev_ind; [discriminate E0|].
  rewrite exec_list_cons. mp. rewrite index_val_last, rev_app_distr. cbn [rev app]. mp. rewrite char_eq.
  destruct (Ascii.eqb c0 star); [|reflexivity].
  rewrite slice_bounds_drop_last by now right. cbn [skipn]. rewrite firstn_drop_last, rev_involutive. reflexivity.
Qed.

(* ... and on token strings it is the model's final_validation *)
Definition tokchar (t : option aa) : ascii := match t with Some a => aa_char a | None => star end.

Lemma count_stars acc : count_substr1 star (map tokchar acc) = Z.of_nat (List.length (filter is_star acc)).
Proof.
  induction acc as [|[a|] acc IH]; [reflexivity| |]; cbn [map tokchar count_substr1 filter is_star].
  - rewrite aa_char_not_star, IH. lia.
  - change (Ascii.eqb star star) with true. cbv iota. cbn [List.length]. rewrite IH. lia.
Qed.

Lemma unsome_nostar acc : filter is_star acc = [] -> map tokchar acc = map aa_char (unsome acc).
Proof.
  induction acc as [|[a|] acc IH]; intros H; [reflexivity| |]; cbn [filter is_star] in H; [|discriminate H].
  cbn [map tokchar unsome]. now rewrite IH.
Qed.

Lemma fv_str_model acc : fv_str (map tokchar acc) = option_map (map aa_char) (final_validation acc).
Proof.
  unfold fv_str, final_validation. rewrite count_stars. set (n := List.length (filter is_star acc)).
  change 0 with (Z.of_nat 0). change 1 with (Z.of_nat 1). rewrite eqb_nat, Z.gtb_ltb, Z.ltb_antisym, leb_nat, <- Nat.ltb_antisym.
  destruct (Nat.eqb_spec n 0) as [E0|N0].
  - cbn [option_map]. f_equal. apply unsome_nostar, length_zero_iff_nil, E0.
  - destruct (Nat.ltb_spec 1 n) as [H1|H1]; [reflexivity|].
    rewrite <- map_rev. destruct (rev acc) as [|[a|] r] eqn:Er; cbn [map tokchar]; [reflexivity| |].
    + rewrite Ascii.eqb_sym, aa_char_not_star. reflexivity.
    + change (Ascii.eqb star star) with true. cbv iota. cbn [option_map]. f_equal. rewrite <- map_rev. apply unsome_nostar.
      assert (Ha : acc = rev r ++ [None]) by (rewrite <- (rev_involutive acc), Er; reflexivity).
      unfold n in H1. rewrite Ha, filter_app, app_length in H1. cbn [filter is_star List.length] in H1.
      apply length_zero_iff_nil. lia.
Qed.

(* SequenceFileParser.parseSeqFile.  The two methods it calls, as established by minipy_validseq_tie / final_validation_tie *)
Definition ps_prim (name : string) (args : list value) : value :=
  if String.eqb name "__validSeq" then
    match args with [VStr cs] => match valid_seq cs with Some t => VStr (map tokchar t) | None => VExc end | _ => VErr end
  else if String.eqb name "__final_validation" then
    match args with [VStr s] => match fv_str s with Some w => VStr w | None => VExc end | _ => VErr end
  else VErr.

Local Notation exec := (MiniPy.exec ps_prim 0).
Local Notation run_loop := (MiniPy.run_loop ps_prim 0).

Definition pf_env (content : value) (silent : bool) (header : value) (sq : value) (line : value) : env :=
  [("self"%string, VNone); ("filename"%string, VNone); ("silent"%string, VBool silent); ("content"%string, content);
   ("header"%string, header); ("seq"%string, sq); ("line"%string, line)].

Definition pf_body : stmt := for_body (stmt_at 2 g_parseSeqFile).

Lemma call_validSeq cs : ps_prim "__validSeq" [VStr cs] = match valid_seq cs with Some t => VStr (map tokchar t) | None => VExc end.
Proof. reflexivity. Qed.
Lemma call_final_validation s : ps_prim "__final_validation" [VStr s] = match fv_str s with Some w => VStr w | None => VExc end.
Proof. reflexivity. Qed.

(* MiniPy's whitespace is the model's *)
Lemma strip_same l : rev (drop_ws (rev (drop_ws l))) = strip l.
Proof. reflexivity. Qed.

Lemma pf_body_step content silent h acc lv l :
  exec pf_body (set "line" (VStr l) (pf_env content silent (VBool h) (VStr (map tokchar acc)) lv)) =
  match strip l with
  | [] => OCont (pf_env content silent (VBool h) (VStr (map tokchar acc)) (VStr []))
  | c :: sl =>
      if Ascii.eqb c ">" then (if h then ORaise else OCont (pf_env content silent (VBool true) (VStr (map tokchar acc)) (VStr (c :: sl))))
      else match valid_seq (c :: sl) with
           | Some t => ONorm (pf_env content silent (VBool h) (VStr (map tokchar (acc ++ t))) (VStr (map tokchar t)))
           | None => ORaise
           end
  end.
Proof.
  unfold pf_body, for_body, stmt_at, g_parseSeqFile, pf_env. cbn [spine nth]. rewrite exec_spine. cbn [spine].
  rewrite exec_list_cons. mp. rewrite strip_same. destruct (strip l) as [|c sl]; [reflexivity|].
  rewrite exec_list_cons. mp. change (Z.of_nat (List.length (c :: sl)) =? 0) with false. cbv beta iota.
  rewrite exec_list_cons, (exec_if_bool _ _ _ _ (Ascii.eqb c ">")) by exact (f_equal VBool (char_eq c ">")).
  destruct (Ascii.eqb c ">"); [destruct h; reflexivity|].
  rewrite exec_if_true by reflexivity. rewrite exec_spine. cbn [spine].
  rewrite exec_list_cons. mp. rewrite call_validSeq. destruct (valid_seq (c :: sl)) as [t|]; [|reflexivity].
  rewrite map_app. reflexivity.
Qed.

Lemma pf_loop content silent ls : forall h acc lv,
  match parse_lines ls h acc with
  | Some acc' => exists h' lv', run_loop "line" pf_body (map VStr ls) (pf_env content silent (VBool h) (VStr (map tokchar acc)) lv) =
                                ONorm (pf_env content silent (VBool h') (VStr (map tokchar acc')) lv')
  | None => run_loop "line" pf_body (map VStr ls) (pf_env content silent (VBool h) (VStr (map tokchar acc)) lv) = ORaise
  end.
Proof.
  induction ls as [|l ls IH]; intros h acc lv; cbn [map MiniPy.run_loop parse_lines]; [exists h, lv; reflexivity|].
  rewrite pf_body_step. destruct (strip l) as [|c sl]; [apply IH|].
  destruct (Ascii.eqb c ">"); [destruct h; [reflexivity | apply IH]|].
  destruct (valid_seq (c :: sl)); [apply IH | reflexivity].
Qed.

(* the whole of parseSeqFile on the lines of ANY file = Model.Parser (parse_lines, then final_validation) *)
Theorem parseSeqFile_tie lines silent :
  exec g_parseSeqFile (pf_env (VList (map VStr lines)) silent VNone VNone VNone) =
  match parse_lines lines false [] with
  | Some acc => match final_validation acc with Some w => ORet (VStr (map aa_char w)) | None => ORaise end
  | None => ORaise
  end.
Proof.
  set (content := VList (map VStr lines)).
  erewrite (exec_split_for _ _ _ _ pf_body _ _ (pf_env content silent (VBool false) (VStr (map tokchar [])) VNone) (map VStr lines)) by reflexivity.
  pose proof (pf_loop content silent lines false [] VNone) as HL.
  destruct (parse_lines lines false []) as [acc|]; [|rewrite HL; reflexivity].
  destruct HL as (h' & lv' & ->).
  (* after the loop: seq = __final_validation(seq); the test on silent; return seq *)
  unfold pf_env. rewrite exec_spine. cbn [spine]. rewrite exec_list_cons. mp. rewrite call_final_validation, fv_str_model.
  destruct (final_validation acc); [|reflexivity]. destruct silent; reflexivity.
Qed.

(* readlines() keeps the line terminators and yields no extra empty last line; the model splits them off — the same for
   parse_lines, which strips every line and skips blank ones *)
Definition py_readlines (text : list ascii) : list (list ascii) :=
  let ls := split_nl (unl false text) in
  map (fun l => l ++ [nl]) (removelast ls) ++ (match last ls [] with [] => [] | l => [l] end).

Lemma readlines_same text h acc : parse_lines (py_readlines text) h acc = parse_lines (split_nl (unl false text)) h acc.
Proof.
  unfold py_readlines. generalize (split_nl_nonempty (unl false text)). generalize (split_nl (unl false text)). intros ls Hne.
  pose proof (app_removelast_last [] Hne) as Hls. remember (removelast ls) as pre. remember (last ls []) as lst.
  rewrite Hls at 1. clear Hls Heqpre Heqlst Hne ls.
  assert (Hm : map strip (map (fun l => l ++ [nl]) pre) = map strip pre).
  { rewrite map_map. apply map_ext. intros l. apply (strip_pad [] l [nl]); reflexivity. }
  destruct lst as [|c l].
  - rewrite app_nil_r, parse_lines_blank_end by reflexivity. apply parse_lines_strip_ext. exact Hm.
  - apply parse_lines_strip_ext. rewrite !map_app, Hm. reflexivity.
Qed.

(* from the text of the file to the result: parseSeqFile on what readlines() yields = Model.Parser.parse *)
Corollary parseSeqFile_text_tie text silent :
  exec g_parseSeqFile (pf_env (VList (map VStr (py_readlines text))) silent VNone VNone VNone) =
  match parse text with Some w => ORet (VStr (map aa_char w)) | None => ORaise end.
Proof.
  rewrite parseSeqFile_tie, readlines_same. unfold parse.
  destruct (parse_lines (split_nl (unl false text)) false []) as [acc|]; [|reflexivity].
  destruct (final_validation acc); reflexivity.
Qed.
Print Assumptions parseSeqFile_text_tie.
