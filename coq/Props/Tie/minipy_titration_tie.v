(* Tie (C09) — SEMANTIC: Sequence.charge_at_pH, translated from the working tree on every run into a Core.MiniPy term
   (the loop over the residues, the two membership tests, the pKa dictionary of the data module, the accumulation, the
   optional normalisation by the number of titratable residues).  np.power(10, x) is an ORACLE P; sums, differences and
   quotients are read as exact rational arithmetic.  For EVERY residue word, rational pH, mode and P (with 1 + P(x) never
   0) the translated code returns the residue-by-residue Henderson-Hasselbalch sum: +1 / (1 + P(pH - pKa)) for K, R, H;
   (-1 | +1 in mode 'TOTAL') / (1 + P(pKa - pH)) for E, D, Y, C; nothing for the other residues. *)
From Coq Require Import List String QArith Lia.
From LC Require Import Core.Residue Core.Lists Core.MiniPy Core.MiniPyData Core.MiniPyExec Spec.Tables Gen.GMiniPy.
Import ListNotations.
Local Open Scope Z_scope.

Section Titration.
Variable P : Q -> Q.                  (* np.power(10, x) *)
Hypothesis P_ok : forall x, Qeq_bool (Qred (inject_Z 1 + P x)) 0 = false.
Variable s : list aa.                 (* self.seq *)
Variable ph : Q.
Variable total_mode : bool.           (* mode == 'TOTAL' *)

Definition ti_prim (name : string) (args : list value) : value :=
  if String.eqb name "np.power" then match args with [VInt 10; VQ x] => VQ (P x) | _ => VErr end
  else if String.eqb name "qdiv" then
    match args with
    | [a; b] => match as_Q a, as_Q b with
                | Some x, Some y => if Qeq_bool y 0 then VExc else VQ (Qred (x / y))
                | _, _ => VErr
                end
    | _ => VErr
    end
  else VErr.
Local Notation exec := (MiniPy.exec ti_prim 0).
Local Notation eval := (MiniPy.eval ti_prim).

Definition ti_spine : list stmt := Eval vm_compute in spine g_charge_at_pH.
Definition ti_body : stmt := Eval vm_compute in for_body (stmt_at 4 g_charge_at_pH).
Definition pka_dict : value := Eval vm_compute in match nth 1 ti_spine SSkip with SAssign _ (EConst v) => v | _ => VNone end.
Definition mode_if : stmt :=
  SIf (EEq (EVar "mode") (EConst (sv "TOTAL"))) (SAssign "negative_numerator" (EConst (VQ (1 # 1))))
      (SAssign "negative_numerator" (ESub (EConst (VInt 0)) (EConst (VQ (1 # 1))))).
Definition norm_if : stmt :=
  SIf (EVar "normalize") (SIf (EEq (EVar "countable_residues") (EConst (VInt 0))) (SAssign "total" (EConst (VInt 0)))
                               (SAssign "total" (ECall "qdiv" [EVar "total"; EVar "countable_residues"]))) SSkip.
Lemma ti_parts : ti_spine = [mode_if; SAssign "pKa_lookup" (EConst pka_dict); SAssign "total" (EConst (VQ (0 # 1)));
                             SAssign "countable_residues" (EConst (VInt 0)); SFor "res" (EVar "self.seq") ti_body; norm_if; SReturn (EVar "total")].
Proof. reflexivity. Qed.

Definition negn : Q := if total_mode then 1 # 1 else Qred (inject_Z 0 - (1 # 1)).
Definition is_posr (a : aa) : bool := match a with Lys | Arg | His => true | _ => false end.
Definition is_negr (a : aa) : bool := match a with Glu | Asp | Tyr | Cys => true | _ => false end.
Definition pk (a : aa) : Q := match pka a with Some q => q | None => 0 end.

(* the pKa dictionary of the data module is the published table *)
Lemma pka_lookup a : is_posr a || is_negr a = true -> exists q, dict_get (VStr [aa_char a]) (match pka_dict with VDict d => d | _ => [] end) = Some (VQ q) /\ (q == pk a)%Q.
Proof. destruct a; intros H; try discriminate H; eexists; (split; [vm_compute; reflexivity | reflexivity]). Qed.

Definition pos_term (q : Q) : Q := Qred (inject_Z 1 / Qred (inject_Z 1 + P (Qred (ph - q)))).
Definition neg_term (q : Q) : Q := Qred (negn / Qred (inject_Z 1 + P (Qred (q - ph)))).
Definition dict_q (a : aa) : Q := match dict_get (VStr [aa_char a]) (match pka_dict with VDict d => d | _ => [] end) with Some (VQ q) => q | _ => 0 end.
Definition step (acc : Q * Z) (a : aa) : Q * Z :=
  if is_posr a then (Qred (fst acc + pos_term (dict_q a)), snd acc + 1)
  else if is_negr a then (Qred (fst acc + neg_term (dict_q a)), snd acc + 1)
  else acc.

Lemma not_both a : is_posr a = true -> is_negr a = false. Proof. destruct a; intros H; try discriminate H; reflexivity. Qed.
Lemma dict_some a : is_posr a || is_negr a = true -> dict_get (kv a) (dict_of pka_dict) = Some (VQ (dict_q a)).
Proof. destruct a; intros H; try discriminate H; reflexivity. Qed.

(* The loop body is twice the same block,  if res in [..]: total = total + num / (1 + np.power(10, x)); countable_residues = countable_residues + 1,
   with num = 1, x = pH - pKa_lookup[res] for K, R, H and num = negative_numerator, x = pKa_lookup[res] - pH for E, D, Y, C. *)
Definition lit (cs : string) : expr := EListLit (map (fun c => EConst (VStr [c])) (la cs)).
Definition pka_res : expr := EIndex (EVar "pKa_lookup") (EVar "res").
Definition den (x : expr) : expr := EAdd (EConst (VInt 1)) (ECall "np.power" [EConst (VInt 10); x]).
Definition block (cs : string) (num x : expr) : stmt :=
  SIf (EIn (EVar "res") (lit cs))
      (SSeq (SAssign "total" (EAdd (EVar "total") (ECall "qdiv" [num; den x])))
            (SAssign "countable_residues" (EAdd (EVar "countable_residues") (EConst (VInt 1))))) SSkip.
Lemma ti_body_shape : ti_body = SSeq (block "KRH" (EConst (VInt 1)) (ESub (EVar "pH") pka_res))
                                     (block "EDYC" (EVar "negative_numerator") (ESub pka_res (EVar "pH"))).
Proof. reflexivity. Qed.

(* what the loop only reads (nv: the value of normalize, read after it), and its two accumulators *)
Definition ti_inv (nv : value) (acc : Q * Z) (r : env) : Prop :=
  lookup "pH" r = VQ ph /\ lookup "pKa_lookup" r = pka_dict /\ lookup "negative_numerator" r = VQ negn /\ lookup "normalize" r = nv /\
  lookup "total" r = VQ (fst acc) /\ lookup "countable_residues" r = VInt (snd acc).

Lemma eval_den x r q : eval x r = VQ q -> eval (den x) r = VQ (Qred (inject_Z 1 + P q)).
Proof. intros E. apply eval_add_Q_int_l; [reflexivity|]. rewrite (eval_call2 _ _ _ _ (VInt 10) (VQ q) (eval_const _ _) E eq_refl eq_refl). reflexivity. Qed.

Lemma eval_pka a r : lookup "pKa_lookup" r = pka_dict -> lookup "res" r = kv a -> is_posr a || is_negr a = true ->
  eval pka_res r = VQ (dict_q a).
Proof.
  intros H1 H2 H3. apply (eval_index_dict _ _ _ (dict_of pka_dict) (kv a));
    [rewrite eval_var; exact H1 | rewrite eval_var; exact H2 | reflexivity | apply dict_some; exact H3].
Qed.

(* one block, the test decided (b) and, where it holds, its numerator and exponent evaluated *)
Lemma block_exec cs num x (b : bool) nq xq nv acc r : ti_inv nv acc r ->
  truthy (eval (EIn (EVar "res") (lit cs)) r) = VBool b ->
  (b = true -> exists v, eval num r = v /\ numv v nq /\ eval x r = VQ xq) ->
  exists r', exec (block cs num x) r = ONorm r' /\ lookup "res" r' = lookup "res" r /\
    ti_inv nv (if b then (Qred (fst acc + Qred (nq / Qred (inject_Z 1 + P xq))), snd acc + 1) else acc) r'.
Proof.
  intros (Hph & Hpk & Hneg & Hnv & Htot & Hn) T E. unfold block. rewrite (exec_if_truthy _ _ _ _ _ T). destruct b.
  - destruct (E eq_refl) as (v & Ev & Nv & Ex).
    pose proof (eval_qdiv _ _ _ _ _ _ _ (fun _ => eq_refl) Ev (eval_den _ _ _ Ex) Nv (NQ _) (P_ok xq)) as Et.
    rewrite (step_assign _ _ _ _ _ (eval_add_Q _ _ _ _ _ (eq_trans (eval_var _ _) Htot) Et) eq_refl).
    rewrite (exec_assign_ok _ _ _ (VInt (snd acc + 1))); [| apply eval_add_int; [var Hn | reflexivity] | reflexivity].
    eexists. split; [reflexivity|]. unfold ti_inv. lk. repeat split; assumption.
  - exists r. repeat split; assumption.
Qed.

Lemma in_pos a r : lookup "res" r = kv a -> truthy (eval (EIn (EVar "res") (lit "KRH")) r) = VBool (is_posr a).
Proof. intros H. rewrite eval_in, eval_var, H. destruct a; reflexivity. Qed.
Lemma in_neg a r : lookup "res" r = kv a -> truthy (eval (EIn (EVar "res") (lit "EDYC")) r) = VBool (is_negr a).
Proof. intros H. rewrite eval_in, eval_var, H. destruct a; reflexivity. Qed.

Lemma ti_step nv a acc r : ti_inv nv acc r ->
  exists r', exec ti_body (set "res" (kv a) r) = ONorm r' /\ ti_inv nv (step acc a) r'.
Proof.
  intros H. set (r0 := set "res" (kv a) r).
  assert (H0 : ti_inv nv acc r0) by (destruct H as (? & ? & ? & ? & ? & ?); unfold ti_inv, r0; lk; repeat split; assumption).
  assert (R0 : lookup "res" r0 = kv a) by apply lookup_set_eq.
  rewrite ti_body_shape.
  destruct (block_exec "KRH" (EConst (VInt 1)) (ESub (EVar "pH") pka_res) (is_posr a) (inject_Z 1) (Qred (ph - dict_q a)) nv acc r0 H0 (in_pos a r0 R0)) as (r1 & E1 & R1 & H1).
  { intros Ep. exists (VInt 1). split; [reflexivity|]. split; [constructor|]. destruct H0 as (Hph & Hpk & _).
    apply eval_sub_Q; [rewrite eval_var; exact Hph | apply eval_pka; [exact Hpk | exact R0 | rewrite Ep; reflexivity]]. }
  rewrite (step_norm _ _ _ _ E1). rewrite R0 in R1.
  destruct (block_exec "EDYC" (EVar "negative_numerator") (ESub pka_res (EVar "pH")) (is_negr a) negn (Qred (dict_q a - ph)) nv _ r1 H1 (in_neg a r1 R1)) as (r2 & E2 & _ & H2).
  { intros En. exists (VQ negn). destruct H1 as (Hph & Hpk & Hneg & _). split; [rewrite eval_var; exact Hneg|]. split; [constructor|].
    apply eval_sub_Q; [apply eval_pka; [exact Hpk | exact R1 | rewrite En; apply orb_true_r] | rewrite eval_var; exact Hph]. }
  exists r2. split; [exact E2|]. unfold step.
  destruct (is_posr a) eqn:Ep; [rewrite (not_both a Ep) in H2; exact H2|]. destruct (is_negr a); exact H2.
Qed.

Definition raw : Q * Z := fold_left step s (0 # 1, 0).
Definition charge_result (normalize : bool) : value :=
  if normalize then (if snd raw =? 0 then VInt 0 else VQ (Qred (fst raw / inject_Z (snd raw)))) else VQ (fst raw).

Lemma mode_exec r : lookup "mode" r = VStr (if total_mode then list_ascii_of_string "TOTAL" else []) ->
  exec mode_if r = ONorm (set "negative_numerator" (VQ negn) r).
Proof.
  intros Hm. unfold mode_if. rewrite (exec_if_bool _ _ _ _ total_mode).
  - unfold negn. destruct total_mode; reflexivity.
  - rewrite (eval_eq_str _ _ _ _ _ (eq_trans (eval_var _ _) Hm) (eval_const _ _)). destruct total_mode; reflexivity.
Qed.

Lemma norm_exec (normalize : bool) r : ti_inv (VBool normalize) raw r ->
  exec_list ti_prim 0 [norm_if; SReturn (EVar "total")] r = ORet (charge_result normalize).
Proof.
  intros (_ & _ & _ & Hnv & Htot & Hn). unfold norm_if, charge_result.
  rewrite (step_if_list _ _ _ _ _ normalize) by (rewrite eval_var, Hnv; reflexivity).
  destruct normalize.
  - rewrite (step_if_list _ _ _ _ _ (snd raw =? 0)) by (rewrite (eval_eq_int _ _ _ (snd raw) 0 (eq_trans (eval_var _ _) Hn) (eval_const _ _)); reflexivity).
    destruct (snd raw =? 0) eqn:Ez.
    + rewrite (step_const_list _ (VInt 0)) by reflexivity. apply step_return_list; [rewrite eval_var; apply lookup_set_eq | reflexivity].
    + rewrite (step_assign_list _ _ _ _ (VQ (Qred (fst raw / inject_Z (snd raw))))); [| | reflexivity].
      * apply step_return_list; [rewrite eval_var; apply lookup_set_eq | reflexivity].
      * apply (eval_qdiv _ _ _ _ _ _ _ (fun _ => eq_refl) (eq_trans (eval_var _ _) Htot) (eq_trans (eval_var _ _) Hn) (NQ _) (NI _)).
        rewrite Qeq_bool_inject_Z_0. exact Ez.
  - rewrite step_skip_list. apply step_return_list; [rewrite eval_var; exact Htot | reflexivity].
Qed.

(* charge_at_pH on EVERY residue word, rational pH and mode, WHATEVER np.power returns (as long as 1 + P(x) is never 0) *)
Theorem charge_at_pH_tie (normalize : bool) r : lookup "self.seq" r = VStr (map aa_char s) -> lookup "pH" r = VQ ph ->
  lookup "mode" r = VStr (if total_mode then list_ascii_of_string "TOTAL" else []) -> lookup "normalize" r = VBool normalize ->
  exec g_charge_at_pH r = ORet (charge_result normalize).
Proof.
  intros Hs Hph Hmode Hnorm. rewrite exec_spine. change (spine g_charge_at_pH) with ti_spine. rewrite ti_parts.
  rewrite (step_norm_list _ _ _ _ (mode_exec r Hmode)).
  rewrite (step_const_list _ pka_dict), (step_const_list _ (VQ (0 # 1))), (step_const_list _ (VInt 0)) by reflexivity.
  set (r3 := set "countable_residues" _ _).
  assert (H3 : ti_inv (VBool normalize) (0 # 1, 0) r3) by (unfold ti_inv, r3; lk; repeat split; assumption || reflexivity).
  rewrite exec_list_cons, (exec_for_elems _ _ _ _ (map (fun a => kv a) s)).
  2:{ rewrite eval_var. unfold r3. lk. rewrite Hs. apply elements_seq_val. }
  destruct (run_loop_fold (prim := ti_prim) (wfuel := 0%nat) "res" ti_body (fun a => kv a) (fun a => a) step (ti_inv (VBool normalize)) s (0 # 1, 0) r3) as (r4 & E4 & H4).
  { intros a acc r' _ H'. destruct (ti_step _ a acc r' H') as (r1 & E1 & H1). exists r1. split; [left; exact E1 | exact H1]. }
  { exact H3. }
  rewrite E4. rewrite map_id in H4. exact (norm_exec _ _ H4).
Qed.

(* the number of titratable residues counted is the number of K, R, H, E, D, Y, C *)
Lemma count_is : snd raw = cnt (fun a => is_posr a || is_negr a) s.
Proof.
  unfold raw. assert (G : forall l t n, snd (fold_left step l (t, n)) = n + cnt (fun a => is_posr a || is_negr a) l).
  { induction l as [|a l IH]; intros t n; [cbn; lia|]. cbn [fold_left cnt]. unfold step at 2. cbn [fst snd].
    destruct (is_posr a) eqn:Ep; [rewrite IH; cbn [orb]; lia|]. destruct (is_negr a); rewrite IH; cbn [orb]; lia. }
  rewrite G. lia.
Qed.
End Titration.
Print Assumptions charge_at_pH_tie.

Example charge_runs : let P := fun x : Q => (x * x + 1)%Q in
  MiniPy.exec (ti_prim P) 0 g_charge_at_pH [("self.seq"%string, VStr (map aa_char [Lys; Glu; Gly; His])); ("pH"%string, VQ (7 # 1)); ("mode"%string, VStr []); ("normalize"%string, VBool true)] =
  ORet (charge_result P [Lys; Glu; Gly; His] (7 # 1) false true) /\ snd (raw P [Lys; Glu; Gly; His] (7 # 1) false) = 3.
Proof. split; vm_compute; reflexivity. Qed.
