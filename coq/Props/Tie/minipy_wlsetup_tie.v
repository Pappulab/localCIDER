(* Tie (C18) — SEMANTIC: the set-up of WangLandauMachine.run_normal_WL (every statement before the loop), translated from the
   working tree on every run into a Core.MiniPy term.  Log-file creation / output and the random generator's creation are
   dropped by the translator (the harness cross-checks the files); t.time() is None. *)
From Coq Require Import List String Ascii ZArith QArith Bool Arith Lia.
From LC Require Import Core.Residue Core.MiniPy Core.MiniPyData Core.MiniPyExec Model.WL Gen.GMiniPy.
Import ListNotations.
Local Open Scope Z_scope.

Section Setup.
Variable rest : string -> list value -> value.     (* oracles: bin centres, np.exp, delta-max search, constructor, kappa, nearest centre *)
Local Notation exec := (MiniPy.exec rest 0).
Variables (n : nat) (seqv bv dmx perm os : value) (k0 : Q) (i0 : nat).
Hypothesis H_bins : rest "getBinCenters" [VN n] = bv.
Hypothesis H_exp : rest "np.exp" [VInt 1] = VN 0.          (* f = e, i.e. exponent k = 0 in the representation f = exp(2^-k) *)
Hypothesis H_san : rest "sanity_check" [] = VNone.
Hypothesis H_dmax : rest ".deltaMax|returnSeqDeltaMax" [seqv; VBool true] = VList [dmx; perm].
Hypothesis H_ctor : rest "Sequence|seq" [perm] = os.
Hypothesis H_kappa : rest ".kappa" [os] = VQ k0.
Hypothesis H_idx : rest "argmin_abs_diff" [bv; VQ k0] = VN i0.
Hypothesis B_bv : is_bad bv = false.
Hypothesis B_seq : is_bad seqv = false.
Hypothesis B_dmx : is_bad dmx = false.
Hypothesis B_perm : is_bad perm = false.
Hypothesis B_os : is_bad os = false.

(* the state the loop starts from: g and H all zero with one entry per bin, f = e, all counters zero, the current object built
   from the permutant the delta-max search returns, its kappa's nearest bin *)
Theorem setup_tie r : lookup "self.nbins_actual" r = VN n -> lookup "self.seq" r = seqv ->
  exists r', exec g_wl_setup r = ONorm r' /\
    lookup "bincts" r' = bv /\ lookup "g" r' = VList (repeat (VInt 0) n) /\ lookup "H" r' = VList (repeat (VInt 0) n) /\
    lookup "f" r' = VN 0 /\ lookup "nstep" r' = VInt 0 /\ lookup "niter" r' = VInt 0 /\ lookup "flatcount" r' = VInt 0 /\
    lookup "seqcount" r' = VInt 0 /\ lookup "reject" r' = VInt 0 /\
    lookup "oseq" r' = os /\ lookup "kold" r' = VQ k0 /\ lookup "idx_old" r' = VN i0 /\
    lookup "self.nbins_actual" r' = VN n /\ lookup "self.seq" r' = seqv.
Proof.
  intros Hn Hs. unfold g_wl_setup. rewrite exec_spine. cbn [spine]. change r with (sets [] r) at 1.
  rewrite (assign_sets "globalStartTime" _ _ _ _ VNone) by reflexivity.
  rewrite (assign_sets "bincts" _ _ _ _ bv);
    [| rewrite (eval_call1 _ _ _ (VN n)); [exact H_bins | rewrite var_sets; exact Hn | reflexivity] | exact B_bv].
  rewrite (assign_sets "g" _ _ _ _ (VList (repeat (VInt 0) n))); [| apply eval_mul_rep1; [reflexivity | rewrite var_sets; exact Hn] | reflexivity].
  rewrite (assign_sets "H" _ _ _ _ (VList (repeat (VInt 0) n))); [| apply eval_mul_rep1; [reflexivity | rewrite var_sets; exact Hn] | reflexivity].
  rewrite (assign_sets "f" _ _ _ _ (VN 0)); [| rewrite (eval_call1 _ _ _ (VInt 1)); [exact H_exp | reflexivity | reflexivity] | reflexivity].
  rewrite (assign_sets "seqcount" _ _ _ _ (VInt 0)) by reflexivity.
  rewrite (assign_sets "nstep" _ _ _ _ (VInt 0)) by reflexivity.
  rewrite (assign_sets "niter" _ _ _ _ (VInt 0)) by reflexivity.
  rewrite (assign_sets "flatcount" _ _ _ _ (VInt 0)) by reflexivity.
  rewrite (assign_sets "$_" _ _ _ _ VNone); [| rewrite eval_call0; exact H_san | reflexivity].
  rewrite exec_list_spine. cbn [spine app].
  rewrite (assign_sets "$1" _ _ _ _ (VList [dmx; perm])); [| | reflexivity].
  2:{ rewrite (eval_call2 _ _ _ _ seqv (VBool true)); [exact H_dmax | rewrite var_sets; exact Hs | reflexivity | exact B_seq | reflexivity]. }
  rewrite (assign_sets "oseqDmax" _ _ _ _ dmx); [| | exact B_dmx].
  2:{ apply (eval_index_list _ _ _ [dmx; perm] 0); [rewrite var_sets; reflexivity | reflexivity | reflexivity]. }
  rewrite (assign_sets "oseqPermut" _ _ _ _ perm); [| | exact B_perm].
  2:{ apply (eval_index_list _ _ _ [dmx; perm] 1); [rewrite var_sets; reflexivity | reflexivity | reflexivity]. }
  rewrite (assign_sets "oseq" _ _ _ _ os); [| rewrite (eval_call1 _ _ _ perm); [exact H_ctor | rewrite var_sets; reflexivity | exact B_perm] | exact B_os].
  rewrite (assign_sets "kold" _ _ _ _ (VQ k0)); [| rewrite (eval_call1 _ _ _ os); [exact H_kappa | rewrite var_sets; reflexivity | exact B_os] | reflexivity].
  rewrite (assign_sets "idx_old" _ _ _ _ (VN i0)); [| | reflexivity].
  2:{ rewrite (eval_call2 _ _ _ _ bv (VQ k0)); [exact H_idx | rewrite var_sets; reflexivity | rewrite var_sets; reflexivity | exact B_bv | reflexivity]. }
  rewrite (assign_sets "startTime" _ _ _ _ VNone) by reflexivity.
  rewrite (assign_sets "reject" _ _ _ _ (VInt 0)) by reflexivity.
  eexists. split; [reflexivity|].
  repeat split; rewrite lookup_sets; reflexivity || assumption.
Qed.
End Setup.
Print Assumptions setup_tie.

(* the model's initial state is this one: zeros per bin, exponent 0, counters 0 *)
Lemma setup_is_wl_init (c : wlcfg) start idx0 : let s := wl_init c start idx0 in
  map (fun q => VInt 0) (gv s) = repeat (VInt 0) (nb_actual c) /\ map VInt (hv s) = repeat (VInt 0) (nb_actual c) /\
  kexp s = 0%nat /\ nstep s = 0%nat /\ niter s = 0%nat /\ idx_old s = idx0 /\ cur s = start /\ Forall (fun q => q = 0%Q) (gv s).
Proof.
  cbn [wl_init gv hv kexp nstep niter idx_old cur]. repeat split.
  - exact (map_repeat (fun _ => VInt 0) 0%Q _).
  - apply map_repeat.
  - apply Forall_forall. intros q Hq. exact (repeat_spec _ _ _ Hq).
Qed.

(* non-vacuity: the term runs with concrete oracles *)
Example setup_runs :
  match MiniPy.exec (fun f args => if String.eqb f "np.exp" then VInt 0 else if String.eqb f "sanity_check" then VNone
                                   else if String.eqb f ".deltaMax|returnSeqDeltaMax" then VList [VQ (1#2); VStr (list_ascii_of_string "EK")]
                                   else if String.eqb f "argmin_abs_diff" then VInt 1 else VList (VStr (list_ascii_of_string f) :: args))
                    0 g_wl_setup [("self.nbins_actual"%string, VInt 3); ("self.seq"%string, VStr (list_ascii_of_string "KE"))] with
  | ONorm r => (lookup "g" r, lookup "H" r, lookup "f" r, lookup "idx_old" r, lookup "oseq" r)
  | _ => (VErr, VErr, VErr, VErr, VErr)
  end = (VList [VInt 0; VInt 0; VInt 0], VList [VInt 0; VInt 0; VInt 0], VInt 0, VInt 1,
         VList [VStr (list_ascii_of_string "Sequence|seq"); VStr (list_ascii_of_string "EK")]).
Proof. vm_compute. reflexivity. Qed.
