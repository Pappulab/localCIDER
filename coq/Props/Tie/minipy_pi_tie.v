(* Tie (C09) — SEMANTIC: the body of Sequence.isoelectric_point, translated from the working tree into a Core.MiniPy term on
   every run (while-loop, escape clause, bisection arithmetic over exact rationals, the call of charge_at_pH interpreted
   as an arbitrary oracle f), is proved to agree with Model.Titration.pi_loop for EVERY oracle and every iteration bound:
   same returned pH; the model's None is the raise of the escape clause (or the exhausted bound, excluded for 221 by
   C09_pI_failure_only_by_escape_clause).  Float literals are read as the decimals written (0.02 = 1/50), as in the model.
   Below that: the end-to-end statement with Proofs/PiReal.v (the translated code never raises and neutralises), the
   forwarding of get_isoelectric_point, and the four pH-taking getters with __verify_pH (C04 / C09). *)
From Coq Require Import List String QArith Lia.
From LC Require Import Core.MiniPy Core.MiniPyData Core.MiniPyExec Model.Titration Gen.GMiniPy.
Import ListNotations.

Section PI.
Variable f : Q -> Q.          (* charge_at_pH(x, normalize=True) *)

Definition pi_prim (name : string) (args : list value) : value :=
  if String.eqb name "charge_at_pH|normalize" then
    match args with [VQ x; VBool true] => VQ (f x) | _ => VErr end
  else VErr.

Definition pi_env (lo hi : Q) (bc ec : nat) (mid pc : value) : env :=
  [("self"%string, VNone); ("min_pH"%string, VQ lo); ("max_pH"%string, VQ hi); ("threshold"%string, VQ (1 # 50));
   ("breakcount"%string, VInt (Z.of_nat bc)); ("errorcount"%string, VInt (Z.of_nat ec)); ("mid_pH"%string, mid);
   ("protein_charge"%string, pc)].
Definition pi_env0 : env :=
  [("self"%string, VNone); ("min_pH"%string, VNone); ("max_pH"%string, VNone); ("threshold"%string, VNone);
   ("breakcount"%string, VNone); ("errorcount"%string, VNone); ("mid_pH"%string, VNone); ("protein_charge"%string, VNone)].

Definition pi_body : stmt := Eval vm_compute in while_body (stmt_at 5 g_isoelectric_point).

(* The body in two parts.  pi_head:  breakcount = breakcount + 1;  if breakcount == 20: (if errorcount == 10: raise;
   errorcount = errorcount + 1;  breakcount = 0;  max_pH = max_pH + 1 or min_pH = min_pH - 1 by the sign of protein_charge).
   pi_bisect:  mid_pH = 0.5 * (max_pH + min_pH);  protein_charge = charge_at_pH(mid_pH);  then min_pH = mid_pH, or
   max_pH = mid_pH, or return mid_pH.  Below, every test is decided before its if is entered: computing through an if
   whose test is stuck unfolds the rest of the body in both branches. *)
Definition pi_head : list stmt := Eval vm_compute in firstn 2 (spine pi_body).
Definition pi_bisect : list stmt := Eval vm_compute in skipn 2 (spine pi_body).

Lemma pi_body_split wf r : MiniPy.exec pi_prim wf pi_body r =
  match exec_list pi_prim wf pi_head r with ONorm r' => exec_list pi_prim wf pi_bisect r' | other => other end.
Proof. rewrite exec_spine. apply (exec_list_split 2). Qed.

Lemma head_noesc wf lo hi bc ec mid pc : (S bc <> 20)%nat ->
  exec_list pi_prim wf pi_head (pi_env lo hi bc ec mid pc) = ONorm (pi_env lo hi (S bc) ec mid pc).
Proof.
  intros N. unfold pi_head.
  rewrite (step_assign_list _ _ _ _ (VN (S bc))); [| rewrite Nat2Z.inj_succ; reflexivity | reflexivity].
  rewrite (step_if_list _ _ _ _ _ false); [reflexivity|].
  change (VBool (Z.of_nat (S bc) =? 20)%Z = VBool false). f_equal. apply Z.eqb_neq. lia.
Qed.

Lemma head_raise wf lo hi mid pc : exec_list pi_prim wf pi_head (pi_env lo hi 19 10 mid pc) = ORaise.
Proof. reflexivity. Qed.

Lemma head_esc wf lo hi ec mid p : (ec <> 10)%nat ->
  exec_list pi_prim wf pi_head (pi_env lo hi 19 ec mid (VQ p)) =
  ONorm (if Qle_bool p 0 then pi_env (Qred (lo - inject_Z 1)) hi 0 (S ec) mid (VQ p)
         else pi_env lo (Qred (hi + inject_Z 1)) 0 (S ec) mid (VQ p)).
Proof.
  intros N. unfold pi_head.
  rewrite (step_assign_list _ _ _ _ (VInt 20)), (step_if_list _ _ _ _ _ true), step_seq_list by reflexivity.
  rewrite (step_if_list _ _ _ _ _ false), step_skip_list.
  2:{ change (VBool (Z.of_nat ec =? 10)%Z = VBool false). f_equal. apply Z.eqb_neq. lia. }
  rewrite step_seq_list, (step_assign_list _ _ _ _ (VN (S ec))); [| rewrite Nat2Z.inj_succ; reflexivity | reflexivity].
  rewrite step_seq_list, (step_const_list _ (VInt 0)), (step_if_list _ _ _ _ _ (negb (Qle_bool p 0))) by reflexivity.
  destruct (Qle_bool p 0); reflexivity.
Qed.

(* lo, hi: the model's bounds.  The code normalises after every operation, the model only the midpoint, so the
   environment holds them up to == ; the midpoint and the two thresholds are stated as the model writes them. *)
Lemma bisect_exec wf lo' hi' lo hi bc ec mid pc : lo' == lo -> hi' == hi ->
  exec_list pi_prim wf pi_bisect (pi_env lo' hi' bc ec mid pc) =
  let m := Qred ((1 # 2) * (hi + lo)) in
  let c := f m in
  if negb (Qle_bool c (2 # 100)) then ONorm (pi_env m hi' bc ec (VQ m) (VQ c))
  else if negb (Qle_bool (- (2 # 100)) c) then ONorm (pi_env lo' m bc ec (VQ m) (VQ c))
  else ORet (VQ m).
Proof.
  intros Hl Hh. cbn zeta. set (m := Qred _). set (c := f m). unfold pi_bisect.
  rewrite (step_assign_list _ _ _ _ (VQ m)); [| | reflexivity].
  2:{ apply (f_equal VQ), Qred_complete. rewrite Qred_correct, Hl, Hh. reflexivity. }
  rewrite (step_assign_list _ _ _ _ (VQ c)), (step_if_list _ _ _ _ _ (negb (Qle_bool c (1 # 50)))) by reflexivity.
  replace (Qle_bool c (1 # 50)) with (Qle_bool c (2 # 100)) by (apply Qleb_comp; reflexivity).
  destruct (Qle_bool c (2 # 100)); [|reflexivity]. cbn [negb].
  rewrite (step_if_list _ _ _ _ _ (negb (Qle_bool (-1 # 50) c))) by reflexivity.
  replace (Qle_bool (-1 # 50) c) with (Qle_bool (- (2 # 100)) c) by (apply Qleb_comp; reflexivity).
  destruct (Qle_bool (- (2 # 100)) c); reflexivity.
Qed.

Definition agree (m : option Q) (o : outcome) : Prop :=
  match m, o with
  | Some x, ORet (VQ y) => y = x
  | None, ORaise => True       (* the escape clause *)
  | None, OErr => True         (* out of iterations *)
  | _, _ => False
  end.

(* protein_charge holds the model's previous charge whenever the escape clause reads it: it is unset only before the
   first pass, and the clause is first entered on the twentieth *)
Definition loop_tie wf k : Prop := forall lo' hi' lo hi bc ec mid pc prev vis,
  lo' == lo -> hi' == hi -> pc = VQ prev \/ (bc < 19)%nat -> (bc < 20)%nat ->
  agree (fst (pi_loop f k lo hi bc ec prev vis))
        (run_while pi_prim wf (EConst (VBool true)) pi_body k (pi_env lo' hi' bc ec mid pc)).

(* a pass whose first part ends normally *)
Lemma bisect_agree wf k (IH : loop_tie wf k) r lo' hi' lo hi bc ec mid pc vis :
  exec_list pi_prim wf pi_head r = ONorm (pi_env lo' hi' bc ec mid pc) -> lo' == lo -> hi' == hi -> (bc < 20)%nat ->
  agree (fst (let m := Qred ((1 # 2) * (hi + lo)) in
              let c := f m in
              if negb (Qle_bool c (2 # 100)) then pi_loop f k m hi bc ec c (m :: vis)
              else if negb (Qle_bool (- (2 # 100)) c) then pi_loop f k lo m bc ec c (m :: vis)
              else (Some m, rev (m :: vis))))
        (run_while pi_prim wf (EConst (VBool true)) pi_body (S k) r).
Proof.
  intros Hd Hl Hh Hbc. cbn [run_while MiniPy.eval truthy].
  rewrite pi_body_split, Hd, (bisect_exec wf lo' hi' lo hi bc ec mid pc Hl Hh). cbn zeta.
  set (m := Qred _). set (c := f m).
  destruct (negb (Qle_bool c (2 # 100))).
  { apply IH; [reflexivity | exact Hh | left; reflexivity | exact Hbc]. }
  destruct (negb (Qle_bool (- (2 # 100)) c)).
  { apply IH; [exact Hl | reflexivity | left; reflexivity | exact Hbc]. }
  reflexivity.
Qed.

Lemma pi_loop_tie wf k : loop_tie wf k.
Proof.
  induction k as [|k IH]; intros lo' hi' lo hi bc ec mid pc prev vis Hl Hh Hpc Hbc; [exact I|].
  cbn [pi_loop]. destruct (Nat.eqb_spec (S bc) 20) as [E|N]; cbn [andb].
  - injection E as ->. destruct Hpc as [->|]; [|lia].
    destruct (Nat.eqb_spec ec 10) as [->|Nec].
    + cbn [run_while MiniPy.eval truthy]. rewrite pi_body_split, head_raise. exact I.
    + pose proof (head_esc wf lo' hi' ec mid prev Nec) as Hd. destruct (Qle_bool prev 0); cbn [negb].
      * apply (bisect_agree wf k IH _ _ _ _ _ _ _ _ _ _ Hd); [rewrite Qred_correct, Hl; reflexivity | exact Hh | lia].
      * apply (bisect_agree wf k IH _ _ _ _ _ _ _ _ _ _ Hd); [exact Hl | rewrite Qred_correct, Hh; reflexivity | lia].
  - apply (bisect_agree wf k IH _ _ _ _ _ _ _ _ _ _ (head_noesc wf lo' hi' bc ec mid pc N)); [exact Hl | exact Hh | lia].
Qed.

(* the whole function: for EVERY charge oracle and every iteration bound, running the generated term agrees with the
   model's loop (same returned pH; the model's None is the raise of the escape clause or the exhausted bound) *)
Theorem isoelectric_point_tie fuel :
  agree (fst (pi_loop f fuel 0 14 0 0 0 [])) (MiniPy.exec pi_prim fuel g_isoelectric_point pi_env0).
Proof.
  assert (Hpre : exec_list pi_prim fuel (firstn 5 (spine g_isoelectric_point)) pi_env0 = ONorm (pi_env 0 14 0 0 VNone VNone))
    by reflexivity.
  rewrite exec_spine, (exec_list_split 5), Hpre.
  change (skipn 5 (spine g_isoelectric_point)) with [SWhile (EConst (VBool true)) pi_body].
  cbn [exec_list]. rewrite exec_while.
  assert (H : agree (fst (pi_loop f fuel 0 14 0 0 0 []))
                    (run_while pi_prim fuel (EConst (VBool true)) pi_body fuel (pi_env 0 14 0 0 VNone VNone))).
  { apply pi_loop_tie; [reflexivity | reflexivity | right; lia | lia]. }
  destruct (run_while pi_prim fuel (EConst (VBool true)) pi_body fuel (pi_env 0 14 0 0 VNone VNone)); exact H.
Qed.
End PI.

Theorem isoelectric_point_matches_model f : agree (fst (isoelectric f)) (MiniPy.exec (pi_prim f) 221 g_isoelectric_point pi_env0).
Proof. unfold isoelectric. apply isoelectric_point_tie. Qed.
Print Assumptions isoelectric_point_matches_model.

(* End to end, the translated code never raises and neutralises: for every sequence with a titratable residue and every
   oracle within 1/1000 of its exact normalised charge, running the term translated from Sequence.isoelectric_point
   returns a pH (no exception, no exhausted bound) at which the oracle's charge is within 0.02 of zero. *)
From Coq Require Import Reals Qabs.
From LC Require Import Proofs.PiReal.

Theorem translated_isoelectric_point_never_raises s (f : Q -> Q) : (0 < ntit s)%Z ->
  (forall q, (Rabs (Q2R (f q) - ncharge (titr_terms s) (Q2R q)) <= 1 / 1000)%R) ->
  exists x, MiniPy.exec (pi_prim f) 221 g_isoelectric_point pi_env0 = ORet (VQ x) /\ (Qabs (f x) <= 2 # 100)%Q.
Proof.
  intros Hpos Hf. destruct (pi_result_neutral s f Hpos Hf) as (x & tr & Hiso & Hq & _).
  pose proof (isoelectric_point_matches_model f) as H. rewrite Hiso in H. cbn [fst] in H.
  destruct (MiniPy.exec (pi_prim f) 221 g_isoelectric_point pi_env0) as [| | | v | |]; try contradiction.
  destruct v; try contradiction. cbn [agree] in H. subst. exists x. split; [reflexivity | exact Hq].
Qed.
Print Assumptions translated_isoelectric_point_never_raises.

(* The public getters (SequenceParameters) are a return of the backend call with their own arguments; those that take a
   pH check its range first. *)
Lemma fw_get_isoelectric_point : g_fw_get_isoelectric_point = SReturn (ECall "SeqObj.isoelectric_point"%string []). Proof. reflexivity. Qed.

Definition fw_ph_shape (m : string) : stmt :=
  SSeq (SIf (ENe (EVar "pH") (EConst VNone)) (SAssign "$_" (ECall "__verify_pH" [EVar "pH"])) SSkip)
       (SReturn (ECall m [EVar "pH"])).
Lemma fw_get_FCR : g_fw_get_FCR = fw_ph_shape "SeqObj.FCR". Proof. reflexivity. Qed.
Lemma fw_get_NCPR : g_fw_get_NCPR = fw_ph_shape "SeqObj.NCPR". Proof. reflexivity. Qed.
Lemma fw_get_mean_net_charge : g_fw_get_mean_net_charge = fw_ph_shape "SeqObj.mean_net_charge". Proof. reflexivity. Qed.
Lemma fw_get_fraction_expanding : g_fw_get_fraction_expanding = fw_ph_shape "SeqObj.FER". Proof. reflexivity. Qed.

Section PHGetters.
Variable backend : string -> list value -> value.      (* the backend methods: oracles here *)
Definition ph_prim (name : string) (args : list value) : value :=
  if String.eqb name "__verify_pH" then
    match args with
    | [v] => match MiniPy.exec noprim 0 g_verify_pH [("pH"%string, v)] with ONorm _ => VNone | ORaise => VExc | _ => VErr end
    | _ => VErr
    end
  else backend name args.

(* __verify_pH on any rational pH: an exception exactly outside [0, 14] *)
Lemma verify_pH_tie (ph : Q) : MiniPy.exec noprim 0 g_verify_pH [("pH"%string, VQ ph)] =
  if Qltb ph 0 || Qltb 14 ph then ORaise else ONorm [("pH"%string, VQ ph)].
Proof.
  unfold g_verify_pH. rewrite (step_if _ _ _ _ _ (Qltb ph 0)) by reflexivity.
  destruct (Qltb ph 0); [reflexivity|]. rewrite step_skip, (exec_if_truthy _ _ _ _ (Qltb 14 ph)) by reflexivity.
  destruct (Qltb 14 ph); reflexivity.
Qed.

(* every pH-taking getter, for ANY backend: without a pH the backend's answer for None; with a rational pH an exception
   exactly outside [0, 14], else the backend's answer for that pH *)
Theorem ph_getter_none m r : lookup "pH" r = VNone -> String.eqb m "__verify_pH" = false -> is_bad (backend m [VNone]) = false ->
  MiniPy.exec ph_prim 0 (fw_ph_shape m) r = ORet (backend m [VNone]).
Proof.
  intros Hp Hm Hb. unfold fw_ph_shape.
  rewrite (step_if _ _ _ _ _ false), step_skip by (cbn [MiniPy.eval]; rewrite Hp; reflexivity).
  apply exec_return_ok; [|exact Hb]. rewrite (eval_call1 _ _ _ VNone (eq_trans (eval_var _ _) Hp) eq_refl). unfold ph_prim. now rewrite Hm.
Qed.
Theorem ph_getter_value m (ph : Q) r : lookup "pH" r = VQ ph -> String.eqb m "__verify_pH" = false -> is_bad (backend m [VQ ph]) = false ->
  MiniPy.exec ph_prim 0 (fw_ph_shape m) r = if Qltb ph 0 || Qltb 14 ph then ORaise else ORet (backend m [VQ ph]).
Proof.
  intros Hp Hm Hb. unfold fw_ph_shape.
  rewrite (step_if _ _ _ _ _ true) by (cbn [MiniPy.eval]; rewrite Hp; reflexivity).
  assert (Ev : MiniPy.eval ph_prim (ECall "__verify_pH" [EVar "pH"]) r = if Qltb ph 0 || Qltb 14 ph then VExc else VNone).
  { rewrite (eval_call1 _ _ _ (VQ ph) (eq_trans (eval_var _ _) Hp) eq_refl). unfold ph_prim. cbn [String.eqb Ascii.eqb Bool.eqb].
    rewrite verify_pH_tie. destruct (Qltb ph 0 || Qltb 14 ph); reflexivity. }
  destruct (Qltb ph 0 || Qltb 14 ph).
  - apply assign_exc, Ev.
  - rewrite (step_assign _ _ _ _ _ Ev eq_refl). apply exec_return_ok; [|exact Hb].
    rewrite (eval_call1 _ _ _ (VQ ph)); [| var Hp | reflexivity]. unfold ph_prim. now rewrite Hm.
Qed.
End PHGetters.
Print Assumptions ph_getter_value.
