(* Tie (C17) — SEMANTIC: the constructor core of Sequence.__init__ (stored sequence, length, charge pattern — derived
   from the residue table when none is handed over —, carried delta-max), Sequence.swapRes, Sequence.full_shuffle and
   Sequence.swapRandChargeRes, translated from the working tree on every run into Core.MiniPy terms.  Random draws are
   ORACLES indexed by their call site (each site runs at most once per call, so a function of the arguments is fully
   general); the objects the moves return are built by RUNNING the translated constructor.  For EVERY parent object,
   indices, frozen list and oracle the translated code returns exactly the object the model (Model/Moves.v) computes —
   the theorems of Props/C17.v are about that model. *)
From Coq Require Import List String QArith Lia.
From LC Require Import Core.Residue Core.Lists Core.MiniPy Core.MiniPyData Core.MiniPyExec Spec.Delta Model.Phospho Model.Moves
  Proofs.Phospho Proofs.Moves Gen.GMiniPy.
Import ListNotations.
Local Open Scope Z_scope.

Definition dmax_val (d : option Q) : value := match d with None => VInt (-1) | Some q => VQ q end.
Lemma dmax_ok_val od : is_bad (dmax_val od) = false. Proof. destruct od; reflexivity. Qed.
Definition obj_val (o : mobj) : value := VList [seq_val (mseq o); pat_val (mpat o); dmax_val (mdmax o)].

(* computes with the interpreter, exec_list, run_loop and v_in left folded: the code below meets, statement after
   statement, values that are stuck until a fact about the object is rewritten in (an index in range, a dictionary entry); with the statements still
   to run folded behind exec_list, such a stuck value does not drag them along, and they are taken one at a time by
   exec_list_cons. *)
Ltac run := lazy beta iota zeta delta [MiniPy.exec MiniPy.eval lookup set String.eqb Ascii.eqb Bool.eqb truthy v_not
                                       cmp_int bad2 is_bad as_Q elements existsb orb negb veqb].

Definition sw (i j k : nat) : nat := if Nat.eqb k i then j else if Nat.eqb k j then i else k.

(* positions without repetition: once i (or j) has been met its stack is spent, and it is not met again *)
Lemma swap_fill i j ps : NoDup ps -> forall sa sb, (In i ps -> sa = [j]) -> (In j ps -> sb = [i]) ->
  fill2 ps [i] [j] sa sb = map (sw i j) ps.
Proof.
  induction 1 as [|a ps Ha _ IH]; intros sa sb Hi Hj; [reflexivity|].
  cbn [fill2 map]. unfold memn, sw at 1. cbn [existsb]. rewrite !orb_false_r.
  destruct (Nat.eqb_spec a i) as [->|Hai]; [|destruct (Nat.eqb_spec a j) as [->|Haj]].
  - rewrite (Hi (or_introl eq_refl)). f_equal. apply IH; [intros H; contradiction | intros H; apply Hj; now right].
  - rewrite (Hj (or_introl eq_refl)). f_equal. apply IH; [intros H; apply Hi; now right | intros H; contradiction].
  - f_equal. apply IH; [intros H; apply Hi; now right | intros H; apply Hj; now right].
Qed.

Lemma swap_idx_map n i j : swap_idx n i j = map (sw i j) (seq 0 n).
Proof. apply swap_fill; [apply seq_NoDup | reflexivity | reflexivity]. Qed.

Lemma swap_idx_sym n i j : swap_idx n i j = swap_idx n j i.
Proof.
  rewrite !swap_idx_map. apply map_ext. intros k. unfold sw.
  destruct (Nat.eqb_spec k i), (Nat.eqb_spec k j); try reflexivity; lia.
Qed.

Lemma rearrange_swap_nth {A} (d : A) (l : list A) i j k : (i < List.length l)%nat -> (j < List.length l)%nat ->
  nth_error (rearrange d l (swap_idx (List.length l) i j)) k = nth_error l (sw i j k).
Proof.
  intros Hi Hj. unfold rearrange. rewrite swap_idx_map, map_map, nth_error_map.
  destruct (Nat.ltb_spec k (List.length l)) as [Hk|Hk].
  - rewrite (nth_error_nth' _ 0%nat), seq_nth by (rewrite ?seq_length; exact Hk). symmetry. apply nth_error_nth'.
    unfold sw. cbn [Nat.add]. destruct (Nat.eqb k i), (Nat.eqb k j); lia.
  - rewrite (proj2 (nth_error_None _ k)) by (rewrite seq_length; exact Hk). symmetry. apply nth_error_None.
    unfold sw. destruct (Nat.eqb_spec k i), (Nat.eqb_spec k j); lia.
Qed.

(* l[i], l[j] = l[j], l[i] as the code performs it, on the image of a list under f *)
Lemma set_nth_swap {A B} (f : A -> B) (d : A) (l : list A) i j : (i < List.length l)%nat -> (j < List.length l)%nat ->
  set_nth (set_nth (map f l) i (f (nth j l d))) j (f (nth i l d)) = map f (rearrange d l (swap_idx (List.length l) i j)).
Proof.
  intros Hi Hj. apply nth_error_ext. intros k.
  rewrite nth_error_set_nth by (rewrite set_nth_length; rewrite map_length; lia).
  rewrite nth_error_set_nth by (rewrite map_length; lia).
  rewrite !nth_error_map, rearrange_swap_nth by assumption. unfold sw.
  destruct (Nat.eqb_spec k j) as [->|Hkj].
  - destruct (Nat.eqb_spec j i) as [->|_]; now rewrite (nth_error_nth' _ d Hi).
  - destruct (Nat.eqb_spec k i) as [->|Hki]; [now rewrite (nth_error_nth' _ d Hj) | reflexivity].
Qed.

(* Sequence.__init__ up to `self.dmax = dmax`, with validateSeq=False: how the moves construct their children *)
(* the residue table as charge_tie establishes it *)
Definition charge_prim (name : string) (args : list value) : value :=
  if String.eqb name "lookUpCharge" then
    match args with [VStr [c]] => match aa_of_char c with Some a => VInt (chg a) | None => VExc end | _ => VErr end
  else VErr.

Definition ctor_env (seq dmax cp sseq slen scp sdmax i : value) : env :=
  [("self"%string, VNone); ("seq"%string, seq); ("dmax"%string, dmax); ("chargePattern"%string, cp);
   ("validateSeq"%string, VBool false); ("self.seq"%string, sseq); ("self.len"%string, slen);
   ("self.chargePattern"%string, scp); ("self.dmax"%string, sdmax); ("i"%string, i)].

Section Ctor.
Local Notation exec := (MiniPy.exec charge_prim 0).
Local Notation run_loop := (MiniPy.run_loop charge_prim 0).

Definition ic_spine : list stmt := Eval vm_compute in spine g_init_core.
(* the body of `for i in range(0, self.len)`: chargePattern += [1], [-1] or [0] by the sign of lookUpCharge(self.seq[i]) *)
Definition ic_loop_body : stmt := Eval vm_compute in
  match nth 5 ic_spine SSkip with SIf _ (SSeq (SFor _ _ b) _) _ => b | _ => SSkip end.
Definition ic_loop : stmt := SFor "i" (ERange (EConst (VInt 0)) (EVar "self.len")) ic_loop_body.
Definition ic_if : stmt := SIf (EEq (ELen (EVar "chargePattern")) (EConst (VInt 0))) (SSeq ic_loop (SAssign "self.chargePattern" (EVar "chargePattern"))) SSkip.
Lemma ic_parts : spine g_init_core =
  [SIf (ENot (EIsStr (EVar "seq"))) SRaise SSkip;
   SIf (EVar "validateSeq") (SSeq (SAssign "seq" (EUpper (EVar "seq"))) (SAssign "seq" (ECall "validateSequence" [EVar "seq"]))) SSkip;
   SAssign "self.seq" (EUpper (EVar "seq")); SAssign "self.len" (ELen (EVar "seq"));
   SAssign "self.chargePattern" (EVar "chargePattern"); ic_if;
   SAssign "self.dmax" (EVar "dmax")].
Proof. reflexivity. Qed.

Variable s : list aa.
Variable d : value.

(* the loop from position |pre| on, when the pattern built so far is that of pre *)
Lemma ic_loop_run : forall t pre i0, s = pre ++ t ->
  exists i1, run_loop "i" ic_loop_body (ints (seq (List.length pre) (List.length t)))
    (ctor_env (seq_val s) d (pat_val (pat pre)) (seq_val s) (VN (List.length s)) (VList []) VNone i0) =
  ONorm (ctor_env (seq_val s) d (pat_val (pat s)) (seq_val s) (VN (List.length s)) (VList []) VNone i1).
Proof.
  induction t as [|a t IH]; intros pre i0 Hs.
  - exists i0. rewrite app_nil_r in Hs. now rewrite Hs.
  - destruct (IH (pre ++ [a]) (VN (List.length pre))) as [i1 E]; [now rewrite <- app_assoc|]. exists i1. rewrite <- E. clear E IH.
    assert (Hix : index_val (map aa_char s) (Z.of_nat (List.length pre)) = Some (aa_char a)).
    { rewrite Hs. apply index_val_map_app_mid. }
    cbn [List.length seq map MiniPy.run_loop]. unfold ic_loop_body at 1, ctor_env at 1. run. rewrite Hix. run.
    cbn [charge_prim String.eqb Ascii.eqb Bool.eqb]. rewrite aa_of_char_char, app_length, Nat.add_1_r. unfold pat.
    rewrite !map_app. cbn [map]. rewrite <- (chg_sgn a). destruct (chg a); reflexivity.
Qed.

(* the constructor core on EVERY residue word, ANY delta-max value and ANY charge pattern handed over: the stored
   sequence and length are the word's, the stored pattern is the one handed over unless that is empty — then it is the
   residue table applied to the STORED sequence, position by position —, delta-max is carried as given *)
Theorem init_core_tie (p : list Z) : is_bad d = false ->
  exists i1, exec g_init_core (ctor_env (seq_val s) d (pat_val p) VNone VNone VNone VNone VNone) =
  let p' := match p with [] => pat s | _ => p end in
  ONorm (ctor_env (seq_val s) d (pat_val p') (seq_val s) (VInt (Z.of_nat (List.length s))) (pat_val p') d i1).
Proof.
  intros Hd. rewrite exec_spine, ic_parts. cbn zeta. unfold ctor_env at 1.
  rewrite exec_list_cons. run. rewrite exec_list_cons. run. rewrite exec_list_cons. run. rewrite map_upper_py_aa_char.
  rewrite exec_list_cons. run. rewrite !map_length. rewrite exec_list_cons. run.
  unfold ic_if at 1. destruct p as [|z p].
  - rewrite (step_if_list _ _ _ _ _ true), step_seq_list, exec_list_cons by reflexivity. unfold ic_loop at 1.
    rewrite (exec_for_range0 _ _ _ _ _ (List.length s)) by reflexivity.
    destruct (ic_loop_run s [] VNone eq_refl) as [i1 E]. exists i1. unfold ctor_env in E. cbn [List.length pat map] in E.
    cbn [map]. rewrite E. rewrite exec_list_cons. run. rewrite exec_list_cons. run. destruct d; try discriminate Hd; reflexivity.
  - exists VNone. rewrite (step_if_list _ _ _ _ _ false) by reflexivity. rewrite exec_list_cons. run. rewrite exec_list_cons. run.
    destruct d; try discriminate Hd; reflexivity.
Qed.
End Ctor.

(* Sequence(seq [, dmax [, chargePattern]]) as a value: the fields the translated constructor stores *)
Definition ctor (args : list value) : value :=
  let go sq d cp := match MiniPy.exec charge_prim 0 g_init_core (ctor_env sq d cp VNone VNone VNone VNone VNone) with
                    | ONorm r => VList [lookup "self.seq" r; lookup "self.chargePattern" r; lookup "self.dmax" r]
                    | ORaise => VExc
                    | _ => VErr
                    end in
  match args with
  | [sq] => go sq (VInt (-1)) (VList [])               (* the defaults of the signature: dmax=-1, chargePattern=[] *)
  | [sq; d] => go sq d (VList [])
  | [sq; d; cp] => go sq d cp
  | _ => VErr
  end.

Lemma ctor3 s d p : is_bad d = false ->
  ctor [seq_val s; d; pat_val p] = VList [seq_val s; pat_val (match p with [] => pat s | _ => p end); d].
Proof. intros Hd. unfold ctor. destruct (init_core_tie s d p Hd) as [i1 E]. rewrite E. reflexivity. Qed.
Lemma ctor2 s d : is_bad d = false -> ctor [seq_val s; d] = VList [seq_val s; pat_val (pat s); d].
Proof. exact (ctor3 s d []). Qed.
Lemma ctor1 s : ctor [seq_val s] = obj_val (mfresh s).
Proof. exact (ctor2 s (VInt (-1)) eq_refl). Qed.

Definition mv_prim0 (name : string) (args : list value) : value :=
  if String.eqb name "Sequence" then ctor args else VErr.

Definition sw_env (o : mobj) (i j t1 t2 : value) : env :=
  [("self"%string, obj_val o); ("self.seq"%string, seq_val (mseq o)); ("self.chargePattern"%string, pat_val (mpat o));
   ("self.dmax"%string, dmax_val (mdmax o)); ("index1"%string, i); ("index2"%string, j); ("$1"%string, t1); ("$2"%string, t2)].

Definition sw_tail : stmt := Eval vm_compute in match g_swapRes with SSeq _ t => t | _ => SSkip end.
Definition sw_head : stmt := Eval vm_compute in match g_swapRes with SSeq h _ => h | _ => SSkip end.
Lemma sw_parts : g_swapRes = SSeq sw_head sw_tail. Proof. reflexivity. Qed.
Definition sw_tail_spine : list stmt := Eval vm_compute in spine sw_tail.

(* everything after the ordering of the indices, for in-range indices (equal or not) *)
Lemma sw_tail_run (o : mobj) (a b : nat) t1 t2 :
  (a < List.length (mseq o))%nat -> (b < List.length (mseq o))%nat -> List.length (mpat o) = List.length (mseq o) ->
  MiniPy.exec mv_prim0 0 sw_tail (sw_env o (VInt (Z.of_nat a)) (VInt (Z.of_nat b)) t1 t2) =
  ORet (obj_val {| mseq := rearrange Ala (mseq o) (swap_idx (List.length (mseq o)) a b);
                   mpat := rearrange 0 (mpat o) (swap_idx (List.length (mseq o)) a b); mdmax := mdmax o |}).
Proof.
  intros Ha Hb Hp.
  rewrite exec_spine. change (spine sw_tail) with sw_tail_spine. unfold sw_tail_spine, sw_env.
  rewrite exec_list_cons. run. rewrite map_map, exec_list_spine. cbn [spine app].
  rewrite exec_list_cons. run. rewrite (index_val_map _ _ Ala) by exact Hb. run.
  rewrite exec_list_cons. run. rewrite (index_val_map _ _ Ala) by exact Ha. run.
  rewrite exec_list_cons. run. rewrite (list_set_nat _ a) by (rewrite map_length; lia). run.
  rewrite exec_list_cons. run. rewrite (list_set_nat _ b) by (rewrite set_nth_length; rewrite map_length; lia). run.
  rewrite exec_list_cons. run. rewrite (index_val_map _ _ 0) by lia. run.
  rewrite exec_list_cons. run. rewrite (index_val_map _ _ 0) by lia. run.
  rewrite exec_list_cons. run.
  rewrite exec_list_cons. run. rewrite (list_set_nat _ a) by (rewrite map_length; lia). run.
  rewrite exec_list_cons. run. rewrite (list_set_nat _ b) by (rewrite set_nth_length; rewrite map_length; lia). run.
  rewrite exec_list_cons. run.
  rewrite (set_nth_swap (fun x => VStr [aa_char x]) Ala), (set_nth_swap VInt 0), Hp by (assumption || lia).
  rewrite <- (map_map aa_char (fun c => VStr [c])), join_chars.
  destruct (mdmax o); cbn [dmax_val orb mv_prim0 String.eqb Ascii.eqb Bool.eqb]; rewrite ctor3 by reflexivity.
  (* the rearranged pattern is not empty, so the constructor stores it *)
  all: unfold rearrange; rewrite (swap_idx_map _ a b); destruct (mseq o); [cbn [List.length] in Ha; lia | reflexivity].
Qed.

Theorem swapRes_tie (o : mobj) (i j : nat) :
  (i < List.length (mseq o))%nat -> (j < List.length (mseq o))%nat -> List.length (mpat o) = List.length (mseq o) ->
  MiniPy.exec mv_prim0 0 g_swapRes (sw_env o (VInt (Z.of_nat i)) (VInt (Z.of_nat j)) VNone VNone) = ORet (obj_val (Model.Moves.swapRes o i j)).
Proof.
  intros Hi Hj Hp. rewrite sw_parts, exec_spine. cbn [spine]. unfold sw_head, Model.Moves.swapRes, sw_env. rewrite exec_list_cons. run.
  destruct (Nat.eqb_spec i j) as [->|Hij].
  - rewrite Z.eqb_refl. run. cbn [mv_prim0 String.eqb Ascii.eqb Bool.eqb]. rewrite ctor1. reflexivity.
  - replace (Z.of_nat i =? Z.of_nat j) with false by (symmetry; apply Z.eqb_neq; lia).
    destruct (Z.ltb_spec (Z.of_nat j) (Z.of_nat i)) as [Hlt|Hge].
    + rewrite <- exec_spine, (swap_idx_sym _ i j). apply sw_tail_run; auto.
    + rewrite <- exec_spine. apply sw_tail_run; auto.
Qed.
Print Assumptions swapRes_tie.

(* set(np.arange(0, self.len)) - set(frozen) is the model's movable list *)
Lemma movable_val prim r n fr : lookup "self.len" r = VN n -> lookup "frozen" r = VList (ints fr) ->
  MiniPy.eval prim (ESetDiff (ESetOf (ERange (EConst (VInt 0)) (EVar "self.len"))) (ESetOf (EVar "frozen"))) r =
  VList (ints (movable n fr)).
Proof.
  intros Hn Hf. rewrite (eval_setdiff _ _ r (vdedup [] (ints (seq 0 n))) (vdedup [] (ints fr))).
  - change (@nil value) with (ints []). rewrite !vdedup_ints, (dedupn_nodup (seq 0 n)) by (apply seq_NoDup || intros x _ []).
    unfold movable. f_equal. apply filter_ints. intros k. rewrite existsb_VN, existsb_dedupn. cbn. now rewrite andb_true_r.
  - apply eval_setof, eval_range0; [reflexivity | exact Hn].
  - apply eval_setof, Hf.
Qed.

Section FullShuffle.
Variable sh : list value -> value.       (* rand.shuffle: ANY function (the hypothesis of the tie says what it returned) *)
Definition fs_prim (name : string) (args : list value) : value :=
  if String.eqb name "Sequence" then ctor args
  else if String.eqb name "rand.shuffle#1" then sh args
  else VErr.
Local Notation exec := (MiniPy.exec fs_prim 0).
Local Notation run_loop := (MiniPy.run_loop fs_prim 0).

Definition fs_spine : list stmt := Eval vm_compute in spine g_full_shuffle.
(* the bodies of the two loops:  lookup[index] = i; index += 1   and
   if i in frozen: new_seq.append(lookup[i])  else: new_seq.append(lookup[newseq.pop()])  (the pop is an index and a slice) *)
Definition fs_body1 : stmt := Eval vm_compute in match nth 3 fs_spine SSkip with SFor _ _ b => b | _ => SSkip end.
Definition fs_body2 : stmt := Eval vm_compute in match nth 8 fs_spine SSkip with SFor _ _ b => b | _ => SSkip end.
Definition fs_loop1 : stmt := SFor "i" (EVar "self.seq") fs_body1.
Definition fs_loop2 : stmt := SFor "i" (ERange (EConst (VInt 0)) (EVar "self.len")) fs_body2.
Lemma fs_parts : spine g_full_shuffle =
  [SAssign "moveable_indicies" (ESetDiff (ESetOf (ERange (EConst (VInt 0)) (EVar "self.len"))) (ESetOf (EVar "frozen")));
   SAssign "lookup" (EConst (VDict [])); SAssign "index" (EConst (VInt 0)); fs_loop1;
   SAssign "newseq" (EListOf (EVar "moveable_indicies")); SAssign "newseq" (ECall "rand.shuffle#1" [EVar "newseq"]);
   SAssign "sequencelist" (EListOf (EVar "self.seq")); SAssign "new_seq" (EListLit []); fs_loop2;
   SReturn (ECall "Sequence" [EJoin [] (EVar "new_seq"); EVar "self.dmax"])].
Proof. reflexivity. Qed.

Variable o : mobj.
Variable fr : list nat.
Local Notation n := (List.length (mseq o)).
Local Notation cs := (map aa_char (mseq o)).

Definition fs_env (mi lk ix i ns sl nseq t1 : value) : env :=
  [("self"%string, obj_val o); ("self.seq"%string, seq_val (mseq o)); ("self.len"%string, VN n);
   ("self.dmax"%string, dmax_val (mdmax o)); ("frozen"%string, VList (ints fr));
   ("moveable_indicies"%string, mi); ("lookup"%string, lk); ("index"%string, ix); ("i"%string, i); ("newseq"%string, ns);
   ("sequencelist"%string, sl); ("new_seq"%string, nseq); ("$1"%string, t1)].

Lemma fs_loop1_run mi ns sl nseq t1 : forall t pre i0, cs = pre ++ t ->
  exists i1, run_loop "i" fs_body1 (chars_val t) (fs_env mi (VDict (dict_from 0 pre)) (VN (List.length pre)) i0 ns sl nseq t1) =
             ONorm (fs_env mi (VDict (dict_from 0 cs)) (VN n) i1 ns sl nseq t1).
Proof.
  induction t as [|c t IH]; intros pre i0 Hs.
  - exists i0. cbn [map MiniPy.run_loop]. rewrite app_nil_r in Hs. rewrite <- Hs, map_length. reflexivity.
  - cbn [map MiniPy.run_loop]. unfold fs_body1 at 1, fs_env at 1. run.
    change (VN (List.length pre)) with (VN (0 + List.length pre)). rewrite dict_set_from, <- dict_from_snoc. cbn [Nat.add].
    destruct (IH (pre ++ [c]) (VStr [c])) as [i1 E]; [now rewrite <- app_assoc|]. exists i1.
    rewrite app_length in E. cbn [List.length] in E. rewrite <- E. unfold fs_env. repeat f_equal. lia.
Qed.

Lemma lk_get p : (p < n)%nat -> dict_get (VN p) (dict_from 0 cs) = Some (VStr [aa_char (nth p (mseq o) Ala)]).
Proof.
  intros H. rewrite dict_get_from by lia. rewrite Nat.sub_0_r, nth_error_map, (nth_error_nth' _ Ala H). reflexivity.
Qed.

Lemma memn_movable p : (p < n)%nat -> memn p (movable n fr) = negb (memn p fr).
Proof.
  intros H. apply eq_true_iff_eq. rewrite negb_true_iff, memn_In, memn_false, movable_spec.
  split; [intros [_ E]; exact E | intros E; split; [exact H | exact E]].
Qed.

(* second loop: frozen positions keep their residue, every other position takes the residue at the index popped from the
   END of the shuffled list *)
Lemma fs_loop2_run mi sl : forall ps st acc i0 t1,
  (forall p, In p ps -> (p < n)%nat) -> (forall x, In x st -> (x < n)%nat) ->
  (List.length (filter (fun p => negb (memn p fr)) ps) <= List.length st)%nat ->
  exists i1 t1' st',
    run_loop "i" fs_body2 (ints ps) (fs_env mi (VDict (dict_from 0 cs)) (VN n) i0 (VList (ints (rev st))) sl (VList acc) t1) =
    ONorm (fs_env mi (VDict (dict_from 0 cs)) (VN n) i1 (VList (ints (rev st'))) sl
             (VList (acc ++ chars_val (map aa_char (rearrange Ala (mseq o) (fill2 ps (movable n fr) [] st []))))) t1').
Proof.
  induction ps as [|p ps IH]; intros st acc i0 t1 Hps Hst Hc.
  - exists i0, t1, st. cbn [map MiniPy.run_loop fill2 rearrange]. now rewrite app_nil_r.
  - assert (Hp : (p < n)%nat) by (apply Hps; now left).
    cbn [map MiniPy.run_loop fill2]. rewrite (memn_movable p Hp), exec_spine. unfold fs_body2 at 1, fs_env at 1. cbn [spine filter] in *.
    destruct (memn p fr) eqn:Ef; cbn [negb] in *.
    + unfold memn in Ef. rewrite (step_if_list _ _ _ _ _ true) by (run; now rewrite v_in_ints, Ef).
      rewrite exec_list_cons. run. rewrite (lk_get p Hp). run. cbn [MiniPy.exec_list].
      destruct (IH st (acc ++ [VStr [aa_char (nth p (mseq o) Ala)]]) (VN p) t1) as [i1 [t1' [st' E]]];
        [intros q Hq; apply Hps; now right | exact Hst | exact Hc |].
      exists i1, t1', st'. unfold fs_env in E. rewrite E. unfold memn at 1. cbn [existsb]. cbn [rearrange map]. now rewrite <- app_assoc.
    + unfold memn in Ef. rewrite (step_if_list _ _ _ _ _ false), exec_list_spine by (run; now rewrite v_in_ints, Ef). cbn [spine app].
      destruct st as [|x st]; [cbn [List.length] in Hc; lia|].
      assert (Hx : (x < n)%nat) by (apply Hst; now left).
      cbn [rev]. rewrite map_app. cbn [map].
      rewrite exec_list_cons. run. rewrite index_val_last. run.
      rewrite exec_list_cons. run. rewrite slice_bounds_drop_last by now left. cbn [skipn]. rewrite firstn_drop_last. run.
      rewrite exec_list_cons. run. rewrite (lk_get x Hx). run. cbn [MiniPy.exec_list].
      destruct (IH st (acc ++ [VStr [aa_char (nth x (mseq o) Ala)]]) (VN p) (VN x)) as [i1 [t1' [st' E]]];
        [intros q Hq; apply Hps; now right | intros q Hq; apply Hst; now right | cbn [List.length] in Hc; lia |].
      exists i1, t1', st'. unfold fs_env in E. rewrite E. cbn [rearrange map]. now rewrite <- app_assoc.
Qed.

Lemma same_set_facts perm : same_set perm (movable n fr) = true ->
  List.length perm = List.length (movable n fr) /\ (forall x, In x perm -> (x < n)%nat).
Proof.
  unfold same_set. rewrite !andb_true_iff, forallb_forall. intros [[[H1 _] H3] _]. split; [now apply Nat.eqb_eq|].
  intros x Hx. apply H3, memn_In, movable_spec in Hx. exact (proj1 Hx).
Qed.

(* full_shuffle on EVERY object, EVERY frozen list and WHATEVER order rand.shuffle left the movable indices in (a
   rearrangement of them): the child is the model's — frozen positions keep their residue, the others take the residues
   at the shuffled indices consumed from the end; the child's pattern is derived afresh from the child's OWN sequence by
   the translated constructor, delta-max is carried *)
Theorem full_shuffle_tie perm c :
  sh [VList (ints (movable n fr))] = VList (ints perm) -> fullShuffle o fr perm = Some c ->
  exec g_full_shuffle (fs_env VNone VNone VNone VNone VNone VNone VNone VNone) = ORet (obj_val c).
Proof.
  intros Hsh Hc. unfold fullShuffle in Hc. destruct (same_set perm (movable n fr)) eqn:Ess; [|discriminate Hc].
  injection Hc as <-. destruct (same_set_facts perm Ess) as [Hlen Hlt].
  rewrite exec_spine, fs_parts. unfold fs_env at 1.
  rewrite exec_list_cons, exec_assign, (movable_val _ _ n fr) by reflexivity. run.
  rewrite exec_list_cons. run. rewrite exec_list_cons. run.
  rewrite exec_list_cons. unfold fs_loop1 at 1. rewrite (exec_for_str _ _ _ _ cs) by reflexivity.
  destruct (fs_loop1_run (VList (ints (movable n fr))) VNone VNone VNone VNone cs [] VNone eq_refl) as [i1 E1].
  cbn [List.length dict_from Z.of_nat] in E1. unfold fs_env in E1. rewrite E1. clear E1.
  rewrite exec_list_cons. run. rewrite exec_list_cons. run. cbn [fs_prim String.eqb Ascii.eqb Bool.eqb]. rewrite Hsh. run.
  rewrite exec_list_cons. run. rewrite exec_list_cons. run.
  rewrite exec_list_cons. unfold fs_loop2 at 1. rewrite (exec_for_range0 _ _ _ _ _ n) by reflexivity.
  destruct (fs_loop2_run (VList (ints (movable n fr))) (VList (chars_val cs)) (seq 0 n) (rev perm) [] i1 VNone) as [i2 [t1' [st' E2]]].
  { intros p Hp. apply in_seq in Hp. lia. }
  { intros x Hx. apply Hlt. now apply in_rev. }
  { rewrite rev_length, Hlen. unfold movable. lia. }
  rewrite rev_involutive in E2. unfold fs_env in E2. rewrite E2. clear E2. cbn [app]. rewrite exec_list_cons. run.
  rewrite join_chars. unfold rebuilt.
  destruct (mdmax o); cbn [dmax_val orb fs_prim String.eqb Ascii.eqb Bool.eqb]; now rewrite ctor2.
Qed.
End FullShuffle.
Print Assumptions full_shuffle_tie.

(* positions (counted from k) of the entries that satisfy f: MiniPyExec.posf at the type Z, and convertible with it *)
Fixpoint posf (f : Z -> bool) (k : nat) (zs : list Z) : list nat :=
  match zs with [] => [] | z :: zs' => if f z then k :: posf f (S k) zs' else posf f (S k) zs' end.

Lemma posf_lt f zs : forall k x, In x (posf f k zs) -> (k <= x < k + List.length zs)%nat.
Proof.
  intros k x H. change (In x (MiniPyExec.posf f k zs)) in H. rewrite (posf_filter 0) in H.
  apply filter_In in H. destruct H as [H _]. apply in_seq in H. lia.
Qed.

Lemma idxs_posf f p fr : filter (fun i => negb (memn i fr)) (posf f 0 p) = idxs f p fr.
Proof.
  change (posf f 0 p) with (MiniPyExec.posf f 0 p). rewrite (posf_filter 0), filter_filter. unfold idxs.
  apply filter_ext. intros i. now rewrite Nat.sub_0_r.
Qed.

(* sorted(l) is l: what the draws need of an index list *)
Definition sorted_ok (l : list nat) : Prop := sortZ (map Z.of_nat l) = map Z.of_nat l.

Lemma sorted_idxs f p fr : sorted_ok (idxs f p fr).
Proof. apply sort_filter_seq. Qed.

Lemma cond_zero prim z r' : truthy (MiniPy.eval prim (EEq (EVar "$x") (EConst (VInt 0))) (set "$x" (VInt z) r')) = VBool (Z.eqb 0 z).
Proof. rewrite Z.eqb_sym. apply cond_eq0. Qed.

(* set(np.where(pattern OP 0)[0]) - frozen : the model's index list *)
Lemma class_val prim cond f p fr r : (forall z r', truthy (MiniPy.eval prim cond (set "$x" (VInt z) r')) = VBool (f z)) ->
  lookup "self.chargePattern" r = pat_val p -> lookup "frozen" r = VList (ints fr) ->
  MiniPy.eval prim (ESetDiff (ESetOf (EEnumFilter "$i" "$x" cond (EVar "$i") (EVar "self.chargePattern"))) (EVar "frozen")) r =
  VList (ints (idxs f p fr)).
Proof.
  intros Hc Hp Hf. rewrite (eval_setdiff _ _ r (vdedup [] (ints (posf f 0 p))) (ints fr)); [| apply eval_setof | exact Hf].
  - change (@nil value) with (ints []). rewrite vdedup_ints, dedupn_nodup by (apply posf_NoDup || intros x _ []).
    rewrite (filter_ints (fun i => negb (memn i fr))) by (intros k; now rewrite existsb_VN). now rewrite idxs_posf.
  - rewrite eval_enumfilter. cbn [MiniPy.eval]. rewrite Hp. cbn [elements].
    exact (enum_list_positions "$i" "$x" cond VInt f r eq_refl (fun a k => Hc a _) p 0%nat).
Qed.

Section SwapRand.
Variable smp : string -> list value -> value.     (* the random generator's sample(): ANY function of call site and arguments *)
Variable o : mobj.
Variable fr : list nat.
(* self.swapRes(i, j) is interpreted by RUNNING the translated swapRes (tied above) on the same object *)
Definition sr_prim (name : string) (args : list value) : value :=
  if String.eqb name "swapRes" then
    match args with
    | [i; j] => match MiniPy.exec mv_prim0 0 g_swapRes (sw_env o i j VNone VNone) with ORet v => v | ORaise => VExc | _ => VErr end
    | _ => VErr
    end
  else smp name args.
Local Notation exec := (MiniPy.exec sr_prim 0).

Definition sr_env (pI nI zI ct s1 s2 : value) : env :=
  [("self"%string, obj_val o); ("self.chargePattern"%string, pat_val (mpat o)); ("frozen"%string, VList (ints fr));
   ("posInd"%string, pI); ("negInd"%string, nI); ("neutInd"%string, zI); ("chargeType"%string, ct);
   ("swapPair1"%string, s1); ("swapPair2"%string, s2)].

Definition sr_spine : list stmt := Eval vm_compute in spine g_swapRandChargeRes.
(* after the three index sets: the if/elif chain on which of them are empty (return self, a fixed chargeType, or
   chargeType = sample([1, 2, 3], 2)); the draw of swapPair1; the draw of swapPair2;
   return self.swapRes(swapPair1[0], swapPair2[0]) *)
Definition sr_chain : stmt := Eval vm_compute in nth 3 sr_spine SSkip.
Definition sr_d1 : stmt := Eval vm_compute in nth 4 sr_spine SSkip.
Definition sr_d2 : stmt := Eval vm_compute in nth 5 sr_spine SSkip.
Definition sr_ret : stmt := Eval vm_compute in nth 6 sr_spine SSkip.
Definition where_set (c : expr) : expr := ESetDiff (ESetOf (EEnumFilter "$i" "$x" c (EVar "$i") (EVar "self.chargePattern"))) (EVar "frozen").
Lemma sr_parts : spine g_swapRandChargeRes =
  [SAssign "posInd" (where_set (EGt (EVar "$x") (EConst (VInt 0)))); SAssign "negInd" (where_set (ELt (EVar "$x") (EConst (VInt 0))));
   SAssign "neutInd" (where_set (EEq (EVar "$x") (EConst (VInt 0)))); sr_chain; sr_d1; sr_d2; sr_ret].
Proof. reflexivity. Qed.

Lemma sr_classes l c0 s1 s2 v1 v2 v3 :
  MiniPy.exec_list sr_prim 0 (SAssign "posInd" (where_set (EGt (EVar "$x") (EConst (VInt 0)))) :: SAssign "negInd" (where_set (ELt (EVar "$x") (EConst (VInt 0)))) ::
                              SAssign "neutInd" (where_set (EEq (EVar "$x") (EConst (VInt 0)))) :: l) (sr_env v1 v2 v3 c0 s1 s2) =
  MiniPy.exec_list sr_prim 0 l
    (sr_env (VList (ints (idxs isposb (mpat o) fr))) (VList (ints (idxs isnegb (mpat o) fr))) (VList (ints (idxs (Z.eqb 0) (mpat o) fr))) c0 s1 s2).
Proof.
  unfold where_set, sr_env.
  rewrite exec_list_cons, exec_assign, (class_val sr_prim _ isposb (mpat o) fr) by (try reflexivity; apply cond_gt0). run.
  rewrite exec_list_cons, exec_assign, (class_val sr_prim _ isnegb (mpat o) fr) by (try reflexivity; apply cond_lt0). run.
  rewrite exec_list_cons, exec_assign, (class_val sr_prim _ (Z.eqb 0) (mpat o) fr) by (try reflexivity; apply cond_zero). run.
  reflexivity.
Qed.

(* the if-chain that fixes (or draws) the two charge types: which of the three lists are empty decides every test *)
Lemma sr_chain_run P Nn Z0 ct ot c0 s1 s2 :
  smp "rand.sample#1" [VList [VInt 1; VInt 2; VInt 3]; VInt 2] = VList [VN (fst ct); VN (snd ct)] ->
  charge_types P Nn Z0 ct = Some ot ->
  exec sr_chain (sr_env (VList (ints P)) (VList (ints Nn)) (VList (ints Z0)) c0 s1 s2) =
  match ot with
  | None => ORet (obj_val o)
  | Some (t1, t2) => ONorm (sr_env (VList (ints P)) (VList (ints Nn)) (VList (ints Z0)) (VList [VN t1; VN t2]) s1 s2)
  end.
Proof.
  intros Hs Hot. unfold charge_types in Hot.
  destruct Z0 as [|z0 Z0]; destruct Nn as [|n0 Nn]; destruct P as [|p0 P]; try (injection Hot as <-; reflexivity).
  destruct ct as [t1 t2]. cbn [fst snd] in Hs.
  destruct ((1 <=? t1)%nat && (t1 <=? 3)%nat && (1 <=? t2)%nat && (t2 <=? 3)%nat && negb (t1 =? t2)%nat); [|discriminate Hot].
  injection Hot as <-. unfold sr_chain, sr_env. rewrite !exec_if_false by reflexivity. run.
  cbn [sr_prim String.eqb Ascii.eqb Bool.eqb]. rewrite Hs. reflexivity.
Qed.

Definition site1 (t : nat) : string := match t with 1%nat => "rand.sample#2" | 2%nat => "rand.sample#3" | _ => "rand.sample#4" end.
Definition site2 (t : nat) : string := match t with 1%nat => "rand.sample#5" | 2%nat => "rand.sample#6" | _ => "rand.sample#7" end.

Lemma idx1 {A} (x y : A) l : index_val (x :: y :: l) 1 = Some y.
Proof. apply (index_val_nat (x :: y :: l) 1). cbn [List.length]. lia. Qed.

(* one draw of a position:  if chargeType[k] == 1: x = sample(sorted(posInd), 1)  elif chargeType[k] == 2: the same from
   negInd  elif chargeType[k] == 3: the same from neutInd; every branch has a call site of its own *)
Definition sr_draw (k : Z) (x : string) (site : nat -> string) : stmt :=
  let test (c : Z) := EEq (EIndex (EVar "chargeType") (EConst (VInt k))) (EConst (VInt c)) in
  let draw (t : nat) (v : string) := SAssign x (ECall (site t) [ESorted (EVar v); EConst (VInt 1)]) in
  SIf (test 1) (draw 1%nat "posInd"%string)
    (SIf (test 2) (draw 2%nat "negInd"%string) (SIf (test 3) (draw 3%nat "neutInd"%string) SSkip)).

Lemma sr_draw_run k x site P Nn Z0 ts t a s1 s2 :
  index_val ts k = Some (VN t) -> (1 <= t <= 3)%nat -> (forall u, String.eqb (site u) "swapRes" = false) ->
  sorted_ok P -> sorted_ok Nn -> sorted_ok Z0 ->
  smp (site t) [VList (ints (pick P Nn Z0 t)); VInt 1] = VList [VN a] ->
  let r := sr_env (VList (ints P)) (VList (ints Nn)) (VList (ints Z0)) (VList ts) s1 s2 in
  exec (sr_draw k x site) r = ONorm (set x (VList [VN a]) r).
Proof.
  intros Hk Ht Hsite HP HN HZ Hs r.
  assert (Htest : forall c, truthy (MiniPy.eval sr_prim (EEq (EIndex (EVar "chargeType") (EConst (VInt k))) (EConst (VInt c))) r) =
                            VBool (Z.of_nat t =? c)).
  { intros c. unfold r, sr_env. run. rewrite Hk. reflexivity. }
  assert (Hdraw : forall v l, lookup v r = VList (ints l) -> sorted_ok l -> l = pick P Nn Z0 t ->
            exec (SAssign x (ECall (site t) [ESorted (EVar v); EConst (VInt 1)])) r = ONorm (set x (VList [VN a]) r)).
  { intros v l Hv Hl ->. rewrite exec_assign, (eval_call2 _ _ _ _ (VList (ints (pick P Nn Z0 t))) (VInt 1)); try reflexivity.
    - unfold sr_prim. rewrite Hsite, Hs. reflexivity.
    - cbn [MiniPy.eval]. rewrite Hv. cbv iota. rewrite ints_of_ints, Hl, map_map. reflexivity. }
  unfold sr_draw. cbv beta zeta. destruct t as [|[|[|[|?]]]]; try lia.
  - rewrite exec_if_true by apply Htest. now apply (Hdraw "posInd"%string P).
  - rewrite exec_if_false, exec_if_true by apply Htest. now apply (Hdraw "negInd"%string Nn).
  - rewrite exec_if_false, exec_if_false, exec_if_true by apply Htest. now apply (Hdraw "neutInd"%string Z0).
Qed.

(* swapPair1 is drawn for chargeType[0] at the sites #2..#4, swapPair2 for chargeType[1] at the sites #5..#7 *)
Lemma sr_d1_run P Nn Z0 t1 t2 a s1 s2 : sorted_ok P -> sorted_ok Nn -> sorted_ok Z0 -> (1 <= t1 <= 3)%nat ->
  smp (site1 t1) [VList (ints (pick P Nn Z0 t1)); VInt 1] = VList [VN a] ->
  exec sr_d1 (sr_env (VList (ints P)) (VList (ints Nn)) (VList (ints Z0)) (VList [VN t1; VN t2]) s1 s2) =
  ONorm (sr_env (VList (ints P)) (VList (ints Nn)) (VList (ints Z0)) (VList [VN t1; VN t2]) (VList [VN a]) s2).
Proof.
  intros HP HN HZ H1 Hs1. apply (sr_draw_run 0 "swapPair1" site1 P Nn Z0 [VN t1; VN t2] t1 a s1 s2); try assumption; [reflexivity|].
  intros [|[|[|u]]]; reflexivity.
Qed.

Lemma sr_d2_run P Nn Z0 t1 t2 b s1 s2 : sorted_ok P -> sorted_ok Nn -> sorted_ok Z0 -> (1 <= t2 <= 3)%nat ->
  smp (site2 t2) [VList (ints (pick P Nn Z0 t2)); VInt 1] = VList [VN b] ->
  exec sr_d2 (sr_env (VList (ints P)) (VList (ints Nn)) (VList (ints Z0)) (VList [VN t1; VN t2]) s1 s2) =
  ONorm (sr_env (VList (ints P)) (VList (ints Nn)) (VList (ints Z0)) (VList [VN t1; VN t2]) s1 (VList [VN b])).
Proof.
  intros HP HN HZ H2 Hs2. apply (sr_draw_run 1 "swapPair2" site2 P Nn Z0 [VN t1; VN t2] t2 b s1 s2); try assumption; [apply idx1|].
  intros [|[|[|u]]]; reflexivity.
Qed.

Lemma sr_ret_run pI nI zI ct a b :
  (a < List.length (mseq o))%nat -> (b < List.length (mseq o))%nat -> List.length (mpat o) = List.length (mseq o) ->
  exec sr_ret (sr_env pI nI zI ct (VList [VN a]) (VList [VN b])) = ORet (obj_val (Model.Moves.swapRes o a b)).
Proof.
  intros Ha Hb Hp. unfold sr_ret, sr_env. run. rewrite !index_val_0. run. cbn [sr_prim String.eqb Ascii.eqb Bool.eqb].
  now rewrite (swapRes_tie o a b Ha Hb Hp).
Qed.

Local Notation Pm := (idxs isposb (mpat o) fr).
Local Notation Nm := (idxs isnegb (mpat o) fr).
Local Notation Zm := (idxs (Z.eqb 0) (mpat o) fr).

(* swapRandChargeRes on EVERY object and frozen list, WHATEVER the generator's sample() returns: when the model accepts
   the outcomes (ct = the two charge types drawn — consulted only when all three classes have a movable residue —, a and
   b = the positions drawn from the sorted index lists of those types), the translated code returns the model's object:
   the parent ITSELF when a swap cannot change kappa, otherwise what the translated swapRes returns for (a, b) *)
Theorem swapRandChargeRes_tie ct a b c : List.length (mpat o) = List.length (mseq o) ->
  smp "rand.sample#1" [VList [VInt 1; VInt 2; VInt 3]; VInt 2] = VList [VN (fst ct); VN (snd ct)] ->
  (forall t1 t2, charge_types Pm Nm Zm ct = Some (Some (t1, t2)) ->
     smp (site1 t1) [VList (ints (pick Pm Nm Zm t1)); VInt 1] = VList [VN a] /\
     smp (site2 t2) [VList (ints (pick Pm Nm Zm t2)); VInt 1] = VList [VN b]) ->
  swapRand o fr ct a b = Some c ->
  exec g_swapRandChargeRes (sr_env VNone VNone VNone VNone VNone VNone) = ORet (obj_val c).
Proof.
  intros Hp Hs0 Hs Hc.
  unfold swapRand in Hc. destruct (charge_types Pm Nm Zm ct) as [[[t1 t2]|]|] eqn:Ect; [| |discriminate Hc].
  all: rewrite exec_spine, sr_parts, sr_classes, exec_list_cons, (sr_chain_run Pm Nm Zm ct _ VNone VNone VNone Hs0 Ect).
  - destruct (memn a (pick Pm Nm Zm t1)) eqn:Ma; [|discriminate Hc]. destruct (memn b (pick Pm Nm Zm t2)) eqn:Mb; [|discriminate Hc].
    injection Hc as <-. destruct (Hs t1 t2 eq_refl) as [Hs1 Hs2].
    assert (Hpick : forall t x, memn x (pick Pm Nm Zm t) = true -> (x < List.length (mseq o))%nat).
    { intros t x Hx. apply memn_In in Hx. unfold pick in Hx. rewrite <- Hp.
      destruct (Nat.eqb t 1); [|destruct (Nat.eqb t 2)]; apply idxs_spec in Hx; tauto. }
    assert (Ht : (1 <= t1 <= 3)%nat /\ (1 <= t2 <= 3)%nat).
    { unfold charge_types in Ect. destruct Zm, Nm, Pm; try discriminate Ect; try (injection Ect as <- <-; lia).
      destruct ct as [u v]. destruct ((1 <=? u)%nat && (u <=? 3)%nat && (1 <=? v)%nat && (v <=? 3)%nat && negb (u =? v)%nat) eqn:Ev; [|discriminate Ect].
      injection Ect as <- <-. rewrite !andb_true_iff, !Nat.leb_le in Ev. lia. }
    rewrite exec_list_cons, (sr_d1_run Pm Nm Zm t1 t2 a _ _ (sorted_idxs _ _ _) (sorted_idxs _ _ _) (sorted_idxs _ _ _) (proj1 Ht) Hs1).
    rewrite exec_list_cons, (sr_d2_run Pm Nm Zm t1 t2 b _ _ (sorted_idxs _ _ _) (sorted_idxs _ _ _) (sorted_idxs _ _ _) (proj2 Ht) Hs2).
    rewrite exec_list_cons, (sr_ret_run _ _ _ _ a b (Hpick t1 a Ma) (Hpick t2 b Mb) Hp). reflexivity.
  - injection Hc as <-. reflexivity.
Qed.
End SwapRand.
Print Assumptions swapRandChargeRes_tie.

(* the hypotheses of the ties are satisfiable, and the translated terms run *)
Definition ex_o : mobj := mfresh [Lys; Glu; Gly; Ala; Asp; Arg].
Definition ex_smp (name : string) (args : list value) : value :=
  if String.eqb name "rand.sample#1" then VList [VInt 2; VInt 3]
  else if String.eqb name "rand.sample#3" then VList [VInt 4]       (* a negative residue: D at 4 *)
  else if String.eqb name "rand.sample#7" then VList [VInt 2]       (* a neutral residue: G at 2 *)
  else VErr.
Example swapRand_runs :
  MiniPy.exec (sr_prim ex_smp ex_o) 0 g_swapRandChargeRes (sr_env ex_o [0%nat] VNone VNone VNone VNone VNone VNone) =
  ORet (obj_val {| mseq := [Lys; Glu; Asp; Ala; Gly; Arg]; mpat := [1; -1; -1; 0; 0; 1]; mdmax := None |})
  /\ swapRand ex_o [0%nat] (2, 3)%nat 4 2 = Some {| mseq := [Lys; Glu; Asp; Ala; Gly; Arg]; mpat := [1; -1; -1; 0; 0; 1]; mdmax := None |}.
Proof. split; vm_compute; reflexivity. Qed.

Definition ex_sh (args : list value) : value := VList [VInt 5; VInt 1; VInt 4; VInt 2].     (* movable indices of ex_o with 0, 3 frozen *)
Example full_shuffle_runs :
  MiniPy.exec (fs_prim ex_sh) 0 g_full_shuffle (fs_env ex_o [0%nat; 3%nat] VNone VNone VNone VNone VNone VNone VNone VNone) =
  ORet (obj_val {| mseq := [Lys; Gly; Asp; Ala; Glu; Arg]; mpat := [1; 0; -1; 0; -1; 1]; mdmax := None |})
  /\ fullShuffle ex_o [0%nat; 3%nat] [5; 1; 4; 2]%nat = Some {| mseq := [Lys; Gly; Asp; Ala; Glu; Arg]; mpat := [1; 0; -1; 0; -1; 1]; mdmax := None |}.
Proof. split; vm_compute; reflexivity. Qed.

(* the public shuffle: exactly a new parameters object around the backend's full_shuffle of the caller's frozen set *)
Lemma fw_get_shuffled_sequence : g_fw_get_shuffled_sequence = SReturn (ECall "SequenceParameters|SeqObj"%string [ECall "SeqObj.full_shuffle"%string [EVar "frozen"%string]]).
Proof. reflexivity. Qed.
