(* Tie (C10) — SEMANTIC: Sequence.linearDistOfNCPR, linearDistOfFCR, linearDistOfSigma and __check_window_to_length,
   translated from the working tree on every run into Core.MiniPy terms.  For EVERY charge pattern and window >= 1 the
   translated code rejects exactly when the window is longer than the sequence, and otherwise returns the position row
   1..N and the value row: flank_start zeros, one value per full window (from the counts of positive / negative entries
   of THAT window), flank_end zeros — with the flanks of Model.Windows.flanks.  np.vstack is the pair of rows; int(a/2)
   is integer division; the guard method is interpreted by running its translated body.  The NCPR and FCR values are then
   identified with the model's statistics (val_ncpr_model, val_fcr_model); the sigma value is given by the code's own
   formula, val_sigma. *)
From Coq Require Import List String Ascii QArith Lia.
From LC Require Import Core.Residue Core.Lists Core.MiniPy Core.MiniPyData Core.MiniPyExec Core.MiniPyLin Spec.Delta Model.Windows Gen.GMiniPy.
Import ListNotations.
Local Open Scope Z_scope.

Section Lin.
Variable cs : list ascii.            (* self.seq (only its length is used, by the guard) *)
Variable p : list Z.                 (* self.chargePattern *)
Variable w : nat.                    (* bloblen *)
Local Notation N := (List.length p).
Hypothesis Hcs : List.length cs = N.

Definition lin_prim (name : string) (args : list value) : value :=
  if String.eqb name "__check_window_to_length" then
    match args with
    | [b] => match MiniPy.exec noprim 0 g_check_window [("self.seq"%string, VStr cs); ("bloblen"%string, b)] with
             | ONorm _ => VNone | ORaise => VExc | _ => VErr end
    | _ => VErr
    end
  else if String.eqb name "int_div" then
    match args with [VInt a; VInt b] => if b =? 0 then VExc else VInt (Z.quot a b) | _ => VErr end
  else if String.eqb name "np.vstack" then
    match args with [VList [a; b]] => VList [a; b] | _ => VErr end
  else if String.eqb name "pow" then
    match args with [VQ q; VInt 2] => VQ (Qred (q * q)) | _ => VErr end
  else VErr.
Local Notation exec := (MiniPy.exec lin_prim 0).
Local Notation eval := (MiniPy.eval lin_prim).

(* the shape shared by the three functions: only the result list's name and the loop body differ *)
Definition lin_ret (res : string) : stmt :=
  SReturn (ECall "np.vstack" [EListLit [ERange (EConst (VInt 1)) (EAdd (EVar "self.len") (EConst (VInt 1)));
                                       EAdd (EAdd (EMul (EListLit [EConst (VInt 0)]) (EVar "flank_start")) (EVar res))
                                            (EMul (EListLit [EConst (VInt 0)]) (EVar "flank_end"))]]).
Definition lin_flanks : stmt :=
  SIf (EEq (EAdd (EMul (EConst (VInt 2)) (EVar "flank")) (EVar "nblobs")) (EVar "self.len"))
      (SSeq (SAssign "flank_start" (EVar "flank")) (SAssign "flank_end" (EVar "flank")))
      (SSeq (SAssign "flank_start" (ESub (EVar "flank") (EConst (VInt 1)))) (SAssign "flank_end" (EVar "flank"))).
Definition lin_stmts (res : string) (body : stmt) : list stmt :=
  [SAssign "$_" (ECall "__check_window_to_length" [EVar "bloblen"]);
   SAssign "nblobs" (EAdd (ESub (EVar "self.len") (EVar "bloblen")) (EConst (VInt 1)));
   SAssign "flank" (ECall "int_div" [EVar "bloblen"; EConst (VInt 2)]);
   lin_flanks;
   SAssign res (EMul (EListLit [EConst (VInt 0)]) (EVar "nblobs"));
   SFor "i" (ERange (EConst (VInt 0)) (EVar "nblobs")) body;
   lin_ret res].

Definition body_of (s : stmt) : stmt :=
  match s with SSeq _ (SSeq _ (SSeq _ (SSeq _ (SSeq _ (SSeq (SFor _ _ b) _))))) => b | _ => SSkip end.
Lemma ncpr_shape : spine g_linNCPR = lin_stmts "blobncpr" (body_of g_linNCPR). Proof. reflexivity. Qed.
Lemma fcr_shape : spine g_linFCR = lin_stmts "blobfcr" (body_of g_linFCR). Proof. reflexivity. Qed.
Lemma sigma_shape : spine g_linSigma = lin_stmts "blobsig" (body_of g_linSigma). Proof. reflexivity. Qed.

(* the shared skeleton, for ANY loop body that stores one value per window *)
Section Generic.
Variable res : string.
Variable body : stmt.
Variable val : list Z -> value.
Hypothesis E1 : String.eqb "self.chargePattern" res = false.
Hypothesis E2 : String.eqb "bloblen" res = false.
Hypothesis E3 : String.eqb "self.len" res = false.
Hypothesis E4 : String.eqb "nblobs" res = false.
Hypothesis E5 : String.eqb "flank_start" res = false.
Hypothesis E6 : String.eqb "flank_end" res = false.
Hypothesis E7 : String.eqb res "i" = false.
Hypothesis body_spec : forall i (done rest : list value) x r, (i + w <= N)%nat -> (1 <= w)%nat -> List.length done = i ->
  lookup "self.chargePattern" r = VList (map VInt p) -> lookup "bloblen" r = VN w -> lookup "i" r = VN i -> lookup res r = VList (done ++ x :: rest) ->
  exists r', exec body r = ONorm r' /\ lookup res r' = VList (done ++ val (blob w i p) :: rest) /\
    lookup "self.chargePattern" r' = lookup "self.chargePattern" r /\ lookup "bloblen" r' = lookup "bloblen" r /\
    lookup "self.len" r' = lookup "self.len" r /\ lookup "nblobs" r' = lookup "nblobs" r /\
    lookup "flank_start" r' = lookup "flank_start" r /\ lookup "flank_end" r' = lookup "flank_end" r.

(* the whole function for a window of at least 1: rejection when it is longer than the sequence, else the two rows *)
Theorem lin_generic r : (1 <= w)%nat -> lookup "self.len" r = VN N -> lookup "self.chargePattern" r = VList (map VInt p) -> lookup "bloblen" r = VN w ->
  MiniPy.exec_list lin_prim 0 (lin_stmts res body) r =
  if (N <? w)%nat then ORaise
  else ORet (VList [VList (map (fun j => VN j) (seq 1 N));
                    VList (repeat (VInt 0) (fst (flanks w N)) ++ map val (blobs w p) ++ repeat (VInt 0) (snd (flanks w N)))]).
Proof.
  intros Hw Hlen Hp Hb.
  (* lin_stmts, lin_flanks and lin_ret above spell the frame out once more because the statements of this file name them;
     they are the library's lin_head, lin_pad and lin_rows statement for statement, so the two spellings are convertible *)
  change (lin_stmts res body) with (lin_head res ++ [SFor "i" (ERange (EConst (VInt 0)) (EVar "nblobs")) body; lin_rows res]).
  (* the first (fun _ => eq_refl) compares, by computation, what lin_prim makes of a call of the guard — running the translated
     g_check_window of Gen.GMiniPy — with MiniPyLin.guard_call, which runs the hand-written window_guard: a change of the
     Python guard breaks the tie here.  The second (and the one given to lin_tail_run) read the int_div and np.vstack
     entries of lin_prim off in the same way *)
  rewrite (lin_head_run lin_prim cs N w Hcs (fun _ => eq_refl) (fun _ => eq_refl) _ _ r Hw Hlen Hb).
  destruct (Nat.ltb_spec N w) as [Hlt|Hge]; [reflexivity|].
  rewrite (lin_tail_run lin_prim N w (fun _ => eq_refl) res "self.chargePattern" (VList (map VInt p)) body (fun i => val (blob w i p)) E7 eq_refl); try assumption.
  (* what the loop and the return read is an argument or was set by the head *)
  3-9: unfold lin_env; lk; assumption || reflexivity.
  - unfold blobs. now rewrite map_map.
  - intros i done rest x r0 Hi. exact (body_spec i done rest x r0 Hi Hw).
Qed.
End Generic.


(* bloblen + 0.0 *)
Definition wq : Q := Qred (inject_Z (Z.of_nat w) + 0).

(* the first three statements of every body: the window and its two counts *)
Lemma counts_run (body_tail : stmt) i r : (i + w <= N)%nat ->
  lookup "self.chargePattern" r = VList (map VInt p) -> lookup "bloblen" r = VN w -> lookup "i" r = VN i ->
  let b := blob w i p in
  let r3 := set "bneg" (VInt (nneg b)) (set "bpos" (VInt (npos b)) (set "blob" (VList (map VInt b)) r)) in
  exec (SSeq (SAssign "blob" (ESlice (EVar "self.chargePattern") (EVar "i") (EAdd (EVar "i") (EVar "bloblen"))))
       (SSeq (SAssign "bpos" (ELen (EEnumFilter "$i" "$x" (EGt (EVar "$x") (EConst (VInt 0))) (EVar "$i") (EVar "blob"))))
       (SSeq (SAssign "bneg" (ELen (EEnumFilter "$i" "$x" (ELt (EVar "$x") (EConst (VInt 0))) (EVar "$i") (EVar "blob")))) body_tail))) r =
  exec body_tail r3.
Proof.
  intros Hi Hp Hb Hii b r3.
  assert (Es : eval (ESlice (EVar "self.chargePattern") (EVar "i") (EAdd (EVar "i") (EVar "bloblen"))) r = VList (map VInt b)).
  { unfold b. rewrite <- blob_map. apply eval_window; [now rewrite map_length | assumption ..]. }
  rewrite (step_assign _ _ _ _ _ Es eq_refl).
  rewrite (step_assign _ _ _ _ _ (count_pos _ b _ (lookup_set_eq _ _ _)) eq_refl).
  apply step_assign; [apply count_neg; lk; reflexivity | reflexivity].
Qed.

Definition val_ncpr (b : list Z) : value := VQ (Qred (inject_Z (npos b - nneg b) / wq)).
Definition val_fcr (b : list Z) : value := VQ (Qred (inject_Z (npos b + nneg b) / wq)).

Lemma eval_quot (e1 : expr) d r : eval e1 r = VInt d -> lookup "bloblen" r = VN w -> (1 <= w)%nat ->
  eval (EDiv e1 (EAdd (EVar "bloblen") (EConst (VQ (0 # 1))))) r = VQ (Qred (inject_Z d / wq)).
Proof.
  intros H1 Hb Hw. apply (eval_div_Q _ _ _ (VInt d)); [exact H1 | reflexivity | |].
  - apply eval_add_Q_int_l; [rewrite eval_var; exact Hb | reflexivity].
  - unfold wq. rewrite Qeq_bool_floatlen_nat. apply Nat.eqb_neq. lia.
Qed.

(* the loop body of linearDistOfNCPR and of linearDistOfFCR: the window, its two counts, and
       res[i] = (bpos op bneg) / (bloblen + 0.0)
   with op the subtraction for the one and the addition for the other *)
Lemma quot_body_run res (op : expr -> expr -> expr) (f : Z -> Z -> Z) i (done rest : list value) x r :
  (forall a b r' u v, eval a r' = VInt u -> eval b r' = VInt v -> eval (op a b) r' = VInt (f u v)) ->
  String.eqb res "blob" = false -> String.eqb res "bpos" = false -> String.eqb res "bneg" = false ->
  (i + w <= N)%nat -> (1 <= w)%nat -> List.length done = i ->
  lookup "self.chargePattern" r = VList (map VInt p) -> lookup "bloblen" r = VN w -> lookup "i" r = VN i -> lookup res r = VList (done ++ x :: rest) ->
  exec (SSeq (SAssign "blob" (ESlice (EVar "self.chargePattern") (EVar "i") (EAdd (EVar "i") (EVar "bloblen"))))
       (SSeq (SAssign "bpos" (ELen (EEnumFilter "$i" "$x" (EGt (EVar "$x") (EConst (VInt 0))) (EVar "$i") (EVar "blob"))))
       (SSeq (SAssign "bneg" (ELen (EEnumFilter "$i" "$x" (ELt (EVar "$x") (EConst (VInt 0))) (EVar "$i") (EVar "blob"))))
             (SSetItem res (EVar "i") (EDiv (op (EVar "bpos") (EVar "bneg")) (EAdd (EVar "bloblen") (EConst (VQ (0 # 1))))))))) r =
  ONorm (set res (VList (done ++ VQ (Qred (inject_Z (f (npos (blob w i p)) (nneg (blob w i p))) / wq)) :: rest))
          (set "bneg" (VInt (nneg (blob w i p))) (set "bpos" (VInt (npos (blob w i p))) (set "blob" (VList (map VInt (blob w i p))) r)))).
Proof.
  intros Hop R1 R2 R3 Hi Hw Hd Hp Hb Hii Hres. rewrite (counts_run _ i r Hi Hp Hb Hii). cbv zeta.
  set (b := blob w i p). set (r3 := set "bneg" _ _).
  apply (exec_store lin_prim res "i" _ r3 done rest x i).
  - unfold r3. lk. exact Hres.
  - exact Hd.
  - unfold r3. lk. exact Hii.
  - apply eval_quot; [| unfold r3; lk; exact Hb | exact Hw].
    apply Hop; rewrite eval_var; unfold r3; lk; reflexivity.
  - reflexivity.
Qed.

Theorem linNCPR_tie r : (1 <= w)%nat -> lookup "self.len" r = VN N -> lookup "self.chargePattern" r = VList (map VInt p) -> lookup "bloblen" r = VN w ->
  exec g_linNCPR r =
  if (N <? w)%nat then ORaise
  else ORet (VList [VList (map (fun j => VN j) (seq 1 N));
                    VList (repeat (VInt 0) (fst (flanks w N)) ++ map val_ncpr (blobs w p) ++ repeat (VInt 0) (snd (flanks w N)))]).
Proof.
  intros Hw Hl Hp Hb. rewrite exec_spine, ncpr_shape.
  apply (lin_generic "blobncpr" (body_of g_linNCPR) val_ncpr); try reflexivity; try assumption.
  intros i done rest x r0 Hi Hw1 Hd Hp0 Hb0 Hi0 Hres. cbn [body_of g_linNCPR].
  rewrite (quot_body_run "blobncpr" ESub Z.sub i done rest x r0 (@eval_sub_int lin_prim) eq_refl eq_refl eq_refl Hi Hw1 Hd Hp0 Hb0 Hi0 Hres).
  eexists. split; [reflexivity|]. repeat split; lk; reflexivity.
Qed.

Theorem linFCR_tie r : (1 <= w)%nat -> lookup "self.len" r = VN N -> lookup "self.chargePattern" r = VList (map VInt p) -> lookup "bloblen" r = VN w ->
  exec g_linFCR r =
  if (N <? w)%nat then ORaise
  else ORet (VList [VList (map (fun j => VN j) (seq 1 N));
                    VList (repeat (VInt 0) (fst (flanks w N)) ++ map val_fcr (blobs w p) ++ repeat (VInt 0) (snd (flanks w N)))]).
Proof.
  intros Hw Hl Hp Hb. rewrite exec_spine, fcr_shape.
  apply (lin_generic "blobfcr" (body_of g_linFCR) val_fcr); try reflexivity; try assumption.
  intros i done rest x r0 Hi Hw1 Hd Hp0 Hb0 Hi0 Hres. cbn [body_of g_linFCR].
  rewrite (quot_body_run "blobfcr" EAdd Z.add i done rest x r0 (@eval_add_int lin_prim) eq_refl eq_refl eq_refl Hi Hw1 Hd Hp0 Hb0 Hi0 Hres).
  eexists. split; [reflexivity|]. repeat split; lk; reflexivity.
Qed.

(* the values stored by linearDistOfNCPR and linearDistOfFCR are the model's per-window statistics ncpr_w and fcr_w *)
Lemma val_ncpr_model b : (1 <= w)%nat -> exists q, val_ncpr b = VQ q /\ (q == ncpr_w w b)%Q.
Proof. intros H. eexists. split; [reflexivity|]. unfold ncpr_w, wq, wQ. rewrite Qred_correct, floatlen_eq. reflexivity. Qed.
Lemma val_fcr_model b : (1 <= w)%nat -> exists q, val_fcr b = VQ q /\ (q == fcr_w w b)%Q.
Proof. intros H. eexists. split; [reflexivity|]. unfold fcr_w, wq, wQ. rewrite Qred_correct, floatlen_eq. reflexivity. Qed.

Definition val_sigma (b : list Z) : value :=
  let nq := Qred (inject_Z (npos b - nneg b) / wq) in
  let fq := Qred (inject_Z (npos b + nneg b) / wq) in
  if Qeq_bool fq 0 then VInt 0 else VQ (Qred (Qred (nq * nq) / fq)).

Theorem linSigma_tie r : (1 <= w)%nat -> lookup "self.len" r = VN N -> lookup "self.chargePattern" r = VList (map VInt p) -> lookup "bloblen" r = VN w ->
  exec g_linSigma r =
  if (N <? w)%nat then ORaise
  else ORet (VList [VList (map (fun j => VN j) (seq 1 N));
                    VList (repeat (VInt 0) (fst (flanks w N)) ++ map val_sigma (blobs w p) ++ repeat (VInt 0) (snd (flanks w N)))]).
Proof.
  intros Hw Hl Hp Hb. rewrite exec_spine, sigma_shape.
  apply (lin_generic "blobsig" (body_of g_linSigma) val_sigma); try reflexivity; try assumption.
  intros i done rest x r0 Hi Hw1 Hd Hp0 Hb0 Hi0 Hres. cbn [body_of g_linSigma].
  rewrite (counts_run _ i r0 Hi Hp0 Hb0 Hi0). cbv zeta.
  set (b := blob w i p). set (r3 := set "bneg" _ _).
  set (nq := Qred (inject_Z (npos b - nneg b) / wq)). set (fq := Qred (inject_Z (npos b + nneg b) / wq)).
  assert (En : eval (EDiv (ESub (EVar "bpos") (EVar "bneg")) (EAdd (EVar "bloblen") (EConst (VQ (0 # 1))))) r3 = VQ nq).
  { apply eval_quot; [| unfold r3; lk; exact Hb0 | exact Hw1]. apply eval_sub_int; rewrite eval_var; unfold r3; lk; reflexivity. }
  rewrite (step_assign _ _ _ _ _ En eq_refl).
  set (r4 := set "bncpr" (VQ nq) r3).
  assert (Ef : eval (EDiv (EAdd (EVar "bpos") (EVar "bneg")) (EAdd (EVar "bloblen") (EConst (VQ (0 # 1))))) r4 = VQ fq).
  { apply eval_quot; [| unfold r4, r3; lk; exact Hb0 | exact Hw1]. apply eval_add_int; rewrite eval_var; unfold r4, r3; lk; reflexivity. }
  rewrite (step_assign _ _ _ _ _ Ef eq_refl).
  set (r5 := set "bfcr" (VQ fq) r4).
  assert (Tz : eval (EEq (EVar "bfcr") (EConst (VInt 0))) r5 = VBool (Qeq_bool fq 0)).
  { apply (eval_eq_val _ _ _ (VQ fq) (VInt 0)); [rewrite eval_var; unfold r5; lk; reflexivity | reflexivity ..]. }
  assert (Esig : exec (SIf (EEq (EVar "bfcr") (EConst (VInt 0))) (SAssign "bsig" (EConst (VInt 0)))
                          (SAssign "bsig" (EDiv (ECall "pow" [EVar "bncpr"; EConst (VInt 2)]) (EVar "bfcr")))) r5 = ONorm (set "bsig" (val_sigma b) r5)).
  { unfold val_sigma. cbv zeta. fold nq fq. rewrite (exec_if_bool _ _ _ _ _ Tz). destruct (Qeq_bool fq 0) eqn:Ez.
    - apply exec_assign_ok; reflexivity.
    - apply exec_assign_ok; [|reflexivity].
      assert (Ep : eval (ECall "pow" [EVar "bncpr"; EConst (VInt 2)]) r5 = VQ (Qred (nq * nq))).
      { rewrite (eval_call2 _ _ _ _ (VQ nq) (VInt 2)); [reflexivity | rewrite eval_var; unfold r5, r4; lk; reflexivity | reflexivity | reflexivity | reflexivity]. }
      apply (eval_div_Q _ _ _ _ _ _ Ep eq_refl); [rewrite eval_var; unfold r5; lk; reflexivity | exact Ez]. }
  rewrite (step_norm _ _ _ _ Esig).
  set (r6 := set "bsig" (val_sigma b) r5).
  assert (Bv : is_bad (val_sigma b) = false) by (unfold val_sigma; cbv zeta; destruct (Qeq_bool _ 0); reflexivity).
  rewrite (exec_store lin_prim "blobsig" "i" _ r6 done rest x i (val_sigma b)).
  - eexists. split; [reflexivity|]. repeat split; unfold r6, r5, r4, r3; lk; reflexivity.
  - unfold r6, r5, r4, r3. lk. exact Hres.
  - exact Hd.
  - unfold r6, r5, r4, r3. lk. exact Hi0.
  - rewrite eval_var. unfold r6. lk. reflexivity.
  - exact Bv.
Qed.
End Lin.
Print Assumptions linSigma_tie.
Print Assumptions linNCPR_tie.
Print Assumptions linFCR_tie.

(* the translated functions run; the hypotheses are satisfiable *)
Definition ex_p : list Z := [1; -1; 0; 1; 1; 0; -1].
Definition ex_env (wv : Z) : env :=
  [("self.len"%string, VInt 7); ("self.chargePattern"%string, VList (map VInt ex_p)); ("bloblen"%string, VInt wv)].
Definition ex_cs : list ascii := map aa_char [Lys; Glu; Gly; Lys; Lys; Gly; Glu].
Example lin_runs :
  MiniPy.exec (lin_prim ex_cs) 0 g_linNCPR (ex_env 4) =
    ORet (VList [VList (map VInt [1; 2; 3; 4; 5; 6; 7]); VList [VInt 0; VQ (1 # 4); VQ (1 # 4); VQ (1 # 2); VQ (1 # 4); VInt 0; VInt 0]]) /\
  MiniPy.exec (lin_prim ex_cs) 0 g_linFCR (ex_env 3) =
    ORet (VList [VList (map VInt [1; 2; 3; 4; 5; 6; 7]); VList [VInt 0; VQ (2 # 3); VQ (2 # 3); VQ (2 # 3); VQ (2 # 3); VQ (2 # 3); VInt 0]]) /\
  MiniPy.exec (lin_prim ex_cs) 0 g_linSigma (ex_env 8) = ORaise /\
  Model.Windows.flanks 4 7 = (1, 2)%nat /\ Model.Windows.flanks 3 7 = (1, 1)%nat.
Proof. repeat split; vm_compute; reflexivity. Qed.

(* the public getters (SequenceParameters) are exactly a return of the backend call with their own arguments *)
Lemma fw_get_linear_sigma : g_fw_get_linear_sigma = SReturn (ECall "SeqObj.linearDistOfSigma"%string [EVar "blobLen"%string]). Proof. reflexivity. Qed.
Lemma fw_get_linear_NCPR : g_fw_get_linear_NCPR = SReturn (ECall "SeqObj.linearDistOfNCPR"%string [EVar "blobLen"%string]). Proof. reflexivity. Qed.
Lemma fw_get_linear_FCR : g_fw_get_linear_FCR = SReturn (ECall "SeqObj.linearDistOfFCR"%string [EVar "blobLen"%string]). Proof. reflexivity. Qed.
Lemma fw_get_linear_hydropathy : g_fw_get_linear_hydropathy = SReturn (ECall "SeqObj.linearDistOfHydropathy"%string [EVar "blobLen"%string]). Proof. reflexivity. Qed.
Lemma fw_get_linear_sequence_composition : g_fw_get_linear_sequence_composition = SReturn (ECall "SeqObj.linearCompositions"%string [EVar "blobLen"%string; EVar "grps"%string]). Proof. reflexivity. Qed.
