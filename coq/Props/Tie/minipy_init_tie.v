(* Tie (C13) — SEMANTIC: the head of Sequence.__init__ (string check, upper-casing, the call of validateSequence, the
   stored sequence and the stored LENGTH), translated from the working tree on every run, for EVERY 8-bit string handed
   over with validateSeq=True (what SequenceParameters does): rejected exactly when Model.Normalise.normalise rejects;
   otherwise self.seq is the normalised word and self.len its length.  validateSequence is interpreted by the function
   its own tie establishes (minipy_validate_tie.v). *)
From Coq Require Import List String Ascii ZArith Bool Lia.
From LC Require Import Core.Residue Core.MiniPy Core.MiniPyData Model.Normalise Gen.GMiniPy.
Import ListNotations.

(* Sequence.__init__ up to `self.chargePattern = chargePattern`, called with validateSeq=True; validateSequence as
   established by validateSequence_tie (minipy_validate_tie.v) *)
Definition init_prim (name : string) (args : list value) : value :=
  if String.eqb name "validateSequence" then
    match args with
    | [VStr cs] => match validate isspace_ascii_N (map N_of_ascii cs) with
                   | Some (a :: w) => VStr (map aa_char (a :: w))
                   | _ => VExc
                   end
    | _ => VErr
    end
  else VErr.
Local Notation exec := (MiniPy.exec init_prim 0).

Definition init_env (seq : value) (cp : value) (sseq slen scp : value) : env :=
  [("self"%string, VNone); ("seq"%string, seq); ("dmax"%string, VInt (-1)); ("chargePattern"%string, cp);
   ("validateSeq"%string, VBool true); ("self.seq"%string, sseq); ("self.len"%string, slen); ("self.chargePattern"%string, scp)].

(* the same range test and the same subtraction, on nat_of_ascii there and on the code point here *)
Lemma upper_code c : [N_of_ascii (upper_py c)] = upper_ascii_N (N_of_ascii c).
Proof.
  unfold upper_py, upper_ascii_N, nat_of_ascii. pose proof (N_ascii_bounded c) as Hc. set (n := N_of_ascii c) in *.
  rewrite <- !leb_to_nat. change (N.to_nat 97) with 97%nat. change (N.to_nat 122) with 122%nat.
  destruct ((97 <=? N.to_nat n) && (N.to_nat n <=? 122))%nat; [|reflexivity].
  f_equal. unfold ascii_of_nat. rewrite N_ascii_embedding; lia.
Qed.

Lemma upper_codes cs : map N_of_ascii (map upper_py cs) = flat_map upper_ascii_N (map N_of_ascii cs).
Proof.
  induction cs as [|c cs IH]; [reflexivity|]. cbn [map flat_map]. rewrite <- upper_code, IH. reflexivity.
Qed.

Lemma call_validate cs : init_prim "validateSequence" [VStr cs] =
  match validate isspace_ascii_N (map N_of_ascii cs) with Some (a :: w) => VStr (map aa_char (a :: w)) | _ => VExc end.
Proof. reflexivity. Qed.

Ltac mi := lazy beta iota zeta delta [MiniPy.exec MiniPy.eval lookup set String.eqb Ascii.eqb Bool.eqb truthy v_not bad2 is_bad
                                       init_env existsb orb negb].

(* the constructor on ANY 8-bit string: rejected exactly when Model.Normalise.normalise rejects; otherwise the stored
   sequence is the normalised word and the stored length is ITS length (not the length of the raw argument) *)
Theorem init_prefix_tie cs (l : list value) : let cp := VList l in
  exec g_init_prefix (init_env (VStr cs) cp VNone VNone VNone) =
  match normalise upper_ascii_N isspace_ascii_N (map N_of_ascii cs) with
  | Some w => ONorm (init_env (VStr (map aa_char w)) cp (VStr (map aa_char w)) (VInt (Z.of_nat (List.length w))) cp)
  | None => ORaise
  end.
Proof.
  cbv zeta. unfold g_init_prefix, normalise. rewrite exec_spine. cbn [spine].
  rewrite exec_list_cons. mi.
  (* the call of validateSequence is left standing at the head; what follows it is run once its result is known *)
  rewrite exec_list_cons. mi. rewrite call_validate, upper_codes.
  destruct cs as [|c cs]; [reflexivity|]. cbn [map].
  set (u := flat_map upper_ascii_N (N_of_ascii c :: map N_of_ascii cs)).
  destruct (validate isspace_ascii_N u) as [[|a w]|]; [reflexivity| |reflexivity].
  mi. cbn [MiniPy.exec_list]. mi. change (aa_char a :: map aa_char w) with (map aa_char (a :: w)).
  rewrite map_length, map_upper_py_aa_char. reflexivity.
Qed.
Print Assumptions init_prefix_tie.
