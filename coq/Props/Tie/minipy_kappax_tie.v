(* Tie (C06, C05) — SEMANTIC: Sequence.__parse_group, kappa_X, Omega and Omega_seq, translated from the working tree into
   Core.MiniPy terms on every run (list comprehension, set(), the construction of another Sequence and its kappa() as
   primitives).  __parse_group on ANY list of strings raises exactly when Model.Recode.parse_group rejects and
   otherwise returns a collection with exactly the model's members; kappa_X — with its calls of __parse_group interpreted
   by RUNNING the translated __parse_group — returns, for ANY sequence, groups and kappa function, kappa of the E/K/G
   recoding whose charge pattern is the model's recode2 / recode1; Omega is kappa of the {P,E,D,K,R} recoding and
   Omega_seq marks exactly those positions. *)
From Coq Require Import List String Ascii ZArith QArith Bool Arith Lia.
From LC Require Import Core.Residue Core.MiniPy Core.MiniPyData Core.MiniPyExec Model.Recode Proofs.Recode Gen.GMiniPy.
Import ListNotations.

Section PG.
Local Notation exec := (MiniPy.exec noprim 0).
Local Notation run_loop := (MiniPy.run_loop noprim 0).

Definition up (x : string) : value := VStr (map upper_py (la x)).
Definition pg_env (lg res : value) : env := [("self"%string, VNone); ("localgrp"%string, lg); ("res"%string, res)].

Lemma upper_same c : upper_py c = upper_ascii c.
Proof. reflexivity. Qed.

(* a member, upper-cased, is one of the 20 one-letter strings exactly when the model parses it *)
Definition valid_up (v : value) : bool := existsb (veqb v) (map (fun a => kv a) order_src).

Lemma valid_up_member x : valid_up (up x) = match parse_member x with Some _ => true | None => false end.
Proof.
  unfold valid_up, up. destruct x as [|c [|d x]]; cbn [parse_member la map].
  - reflexivity.
  - change (upper_ascii c) with (upper_py c). generalize (upper_py c). intros u.
    destruct (aa_of_char u) as [b|] eqn:E.
    + apply aa_of_char_some in E. subst u. destruct b; reflexivity.
    + destruct (existsb (veqb (VStr [u])) (map (fun a => kv a) order_src)) eqn:Ex; [|reflexivity].
      exfalso. apply existsb_exists in Ex. destruct Ex as [v [Hin Hv]]. apply in_map_iff in Hin. destruct Hin as [b [<- _]].
      rewrite veqb_char in Hv. apply Ascii.eqb_eq in Hv. subst u. rewrite aa_of_char_char in E. discriminate.
  - induction order_src as [|a l IH]; [reflexivity|]. cbn [map existsb]. rewrite IH.
    cbn [veqb ascii_list_eqb]. destruct (Ascii.eqb (upper_py c) (aa_char a)); reflexivity.
Qed.

Definition pg_spine : list stmt := Eval vm_compute in spine g_parse_group.
Lemma pg_spine_eq : spine g_parse_group = pg_spine. Proof. vm_compute. reflexivity. Qed.
Definition pg_body : stmt := Eval vm_compute in match nth 1 pg_spine SSkip with SFor _ _ b => b | _ => SSkip end.
Lemma pg_parts : pg_spine = [SAssign "localgrp" (ESetOf (EComp "x" (EUpper (EVar "x")) (EVar "localgrp")));
                             SFor "res" (EVar "localgrp") pg_body; SReturn (EVar "localgrp")].
Proof. reflexivity. Qed.

Lemma pg_step lg res s :
  exec pg_body (set "res" (VStr s) (pg_env lg res)) = if valid_up (VStr s) then ONorm (pg_env lg (VStr s)) else ORaise.
Proof.
  unfold pg_body. rewrite (exec_raise_unless_in _ _ _ (valid_up (VStr s))) by reflexivity.
  destruct (valid_up (VStr s)); reflexivity.
Qed.

Lemma pg_loop lg L : all_str L -> forall res,
  if forallb valid_up L then exists res', run_loop "res" pg_body L (pg_env lg res) = ONorm (pg_env lg res')
  else run_loop "res" pg_body L (pg_env lg res) = ORaise.
Proof.
  induction L as [|v L IH]; intros HL res; cbn [forallb MiniPy.run_loop].
  - exists res. reflexivity.
  - destruct (HL v (or_introl eq_refl)) as [s ->].
    rewrite pg_step.
    destruct (valid_up (VStr s)); cbn [andb]; [|reflexivity]. apply IH. intros w Hw. apply HL. right. exact Hw.
Qed.

Lemma all_str_up g : all_str (map up g).
Proof. exact (all_str_map (fun x => map upper_py (la x)) g). Qed.

Theorem parse_group_tie g :
  exec g_parse_group (pg_env (VList (map (fun x => sv x) g)) VNone) =
  if forallb valid_up (vdedup [] (map up g)) then ORet (VList (vdedup [] (map up g))) else ORaise.
Proof.
  rewrite exec_spine, pg_spine_eq, pg_parts, (step_norm_list _ _ _ (pg_env (VList (vdedup [] (map up g))) VNone)).
  2:{ rewrite (exec_assign_ok _ _ _ (VList (vdedup [] (map up g)))); [reflexivity | | reflexivity].
      apply eval_setof. eapply (eval_comp_map _ _ _ (fun x => sv x) up g); [reflexivity | reflexivity | | reflexivity].
      intros x. apply eval_upper_str, lookup_set_eq. }
  rewrite exec_list_cons, (exec_for_list _ _ _ _ (vdedup [] (map up g))) by reflexivity.
  assert (HL : all_str (vdedup [] (map up g))).
  { intros v Hv. apply (all_str_up g), (vdedup_In _ _ _ Hv). }
  pose proof (pg_loop (VList (vdedup [] (map up g))) _ HL VNone) as HLoop.
  destruct (forallb valid_up (vdedup [] (map up g))); [|rewrite HLoop; reflexivity].
  destruct HLoop as [res' ->]. reflexivity.
Qed.

Lemma str_veqb_refl s : veqb (VStr s) (VStr s) = true.
Proof. now apply veqb_VStr_eq. Qed.

Lemma up_member x b : parse_member x = Some b -> up x = kv b.
Proof.
  unfold parse_member, up. destruct x as [|c [|d x]]; try discriminate. intros H. cbn [la map].
  change (upper_ascii c) with (upper_py c) in H. apply aa_of_char_some in H. now rewrite H.
Qed.

Theorem pg_accepts g : forallb valid_up (vdedup [] (map up g)) = match parse_group g with Some _ => true | None => false end.
Proof.
  rewrite (forallb_vdedup valid_up _ (all_str_up g) [] all_str_nil) by (intros w []).
  induction g as [|x g IH]; [reflexivity|]. cbn [map forallb parse_group]. rewrite valid_up_member, IH.
  destruct (parse_member x); [|reflexivity]. destruct (parse_group g); reflexivity.
Qed.

Theorem pg_membership g l a : parse_group g = Some l -> existsb (veqb (kv a)) (vdedup [] (map up g)) = mem_aa a l.
Proof.
  intros H. pose proof (existsb_vdedup [aa_char a] _ (all_str_up g) [] all_str_nil) as E. cbn [existsb] in E. rewrite !orb_false_r in E.
  rewrite E. clear E. revert l H. induction g as [|x g IH]; intros l H; cbn [parse_group] in H.
  - injection H as <-. reflexivity.
  - destruct (parse_member x) as [b|] eqn:Eb; [|discriminate]. destruct (parse_group g) as [l'|]; [|discriminate]. injection H as <-.
    cbn [map existsb mem_aa]. rewrite (up_member x b Eb), kv_eqb, (IH l' eq_refl). reflexivity.
Qed.

Theorem pg_empty g l : parse_group g = Some l -> (vdedup [] (map up g) = [] <-> l = []).
Proof.
  intros H. destruct g as [|x g].
  - injection H as <-. tauto.
  - split; [discriminate|]. intros ->. destruct (parse_group_cons x g H).
Qed.
End PG.

Section KX.
(* the three things kappa_X calls, by what is established about them: __parse_group (parse_group_tie + pg_*: rejects
   exactly when the model does, otherwise a collection with the model's members, empty iff the model's list is), the
   construction of a Sequence from a string, and that object's kappa() — here ANY function K of the string *)
Variable prim : string -> list value -> value.
Variable obj : list ascii -> value.
Variable K : list ascii -> value.
Variable coll : list string -> list value.
Hypothesis Hpg : forall g, prim "__parse_group" [VList (map (fun x => sv x) g)] =
                           match parse_group g with Some _ => VList (coll g) | None => VExc end.
Hypothesis Hmem : forall g l a, parse_group g = Some l -> existsb (veqb (kv a)) (coll g) = mem_aa a l.
Hypothesis Hemp : forall g l, parse_group g = Some l -> (coll g = [] <-> l = []).
Hypothesis Hobj : forall s, prim "Sequence" [VStr s] = obj s.
Hypothesis Hobj_ok : forall s, obj s <> VErr /\ obj s <> VExc.
Hypothesis Hkap : forall s, prim ".kappa" [obj s] = K s.
Hypothesis HK_ok : forall s, K s <> VErr /\ K s <> VExc.

Local Notation exec := (MiniPy.exec prim 0).
Local Notation run_loop := (MiniPy.run_loop prim 0).

Definition kx_env (s : list aa) (g1 g2 newseq res aug : value) : env :=
  [("self"%string, VNone); ("grp1"%string, g1); ("grp2"%string, g2); ("self.seq"%string, VStr (map aa_char s));
   ("newseq"%string, newseq); ("res"%string, res); ("augmented_seq"%string, aug)].

Definition letter2 (l1 l2 : list aa) (a : aa) : ascii := if mem_aa a l1 then "E"%char else if mem_aa a l2 then "K"%char else "G"%char.
Definition letter1 (l1 : list aa) (a : aa) : ascii := if mem_aa a l1 then "E"%char else "K"%char.

Definition kx_spine : list stmt := Eval vm_compute in spine g_kappa_X.
Lemma kx_spine_eq : spine g_kappa_X = kx_spine. Proof. vm_compute. reflexivity. Qed.
Definition kx_if : stmt := Eval vm_compute in nth 2 kx_spine SSkip.
Definition kx_body2 : stmt := Eval vm_compute in match kx_if with SIf _ (SSeq _ (SFor _ _ b)) _ => b | _ => SSkip end.
Definition kx_body1 : stmt := Eval vm_compute in match kx_if with SIf _ _ (SSeq _ (SFor _ _ b)) => b | _ => SSkip end.

Lemma kx_step2 s c1 c2 l1 l2 acc res aug a :
  (forall b, existsb (veqb (kv b)) c1 = mem_aa b l1) -> (forall b, existsb (veqb (kv b)) c2 = mem_aa b l2) ->
  exec kx_body2 (set "res" (kv a) (kx_env s (VList c1) (VList c2) (VStr acc) res aug)) =
  ONorm (kx_env s (VList c1) (VList c2) (VStr (acc ++ [letter2 l1 l2 a])) (kv a) aug).
Proof.
  intros H1 H2. unfold kx_body2, letter2.
  rewrite (exec_if_truthy _ _ _ _ (mem_aa a l1)) by (rewrite <- H1; reflexivity). destruct (mem_aa a l1); [reflexivity|].
  rewrite (exec_if_truthy _ _ _ _ (mem_aa a l2)) by (rewrite <- H2; reflexivity). destruct (mem_aa a l2); reflexivity.
Qed.

Lemma kx_step1 s c1 g2 l1 acc res aug a :
  (forall b, existsb (veqb (kv b)) c1 = mem_aa b l1) ->
  exec kx_body1 (set "res" (kv a) (kx_env s (VList c1) g2 (VStr acc) res aug)) =
  ONorm (kx_env s (VList c1) g2 (VStr (acc ++ [letter1 l1 a])) (kv a) aug).
Proof.
  intros H1. unfold kx_body1, letter1.
  rewrite (exec_if_truthy _ _ _ _ (mem_aa a l1)) by (rewrite <- H1; reflexivity). destruct (mem_aa a l1); reflexivity.
Qed.

Definition g2_val (g2 : option (list string)) : value :=
  match g2 with Some g => VList (map (fun x => sv x) g) | None => VNone end.

Definition kx_s0 : stmt := Eval vm_compute in nth 0 kx_spine SSkip.
Definition kx_s1 : stmt := Eval vm_compute in nth 1 kx_spine SSkip.
Definition kx_s3 : stmt := Eval vm_compute in nth 3 kx_spine SSkip.
Definition kx_s4 : stmt := Eval vm_compute in nth 4 kx_spine SSkip.
Lemma kx_parts : kx_spine = [kx_s0; kx_s1; kx_if; kx_s3; kx_s4]. Proof. reflexivity. Qed.
Definition kx_a : stmt := SAssign "newseq" (EConst (VStr [])).
Definition kx_for (body : stmt) : stmt := SSeq kx_a (SFor "res" (EVar "self.seq") body).
Lemma kx_if_eq : kx_if = SIf (EVar "grp2") (kx_for kx_body2) (kx_for kx_body1). Proof. reflexivity. Qed.

(* the last two statements: build the object, ask its kappa *)
Lemma kx_tail s g1v g2v str res : exec kx_s3 (kx_env s g1v g2v (VStr str) res VNone) = ONorm (kx_env s g1v g2v (VStr str) res (obj str)).
Proof.
  unfold kx_s3. rewrite (exec_assign_ok _ _ _ (obj str)); [reflexivity | | apply not_bad, Hobj_ok].
  rewrite (eval_call1 _ _ _ (VStr str)) by reflexivity. apply Hobj.
Qed.
Lemma kx_ret s g1v g2v str res : exec kx_s4 (kx_env s g1v g2v (VStr str) res (obj str)) = ORet (K str).
Proof.
  unfold kx_s4. apply exec_return_ok; [|apply not_bad, HK_ok].
  rewrite (eval_call1 _ _ _ (obj str)) by (reflexivity || apply not_bad, Hobj_ok). apply Hkap.
Qed.

(* x = self.__parse_group(x) *)
Lemma kx_parse x r g : lookup x r = VList (map (fun y => sv y) g) ->
  exec (SAssign x (ECall "__parse_group" [EVar x])) r =
  match parse_group g with Some _ => ONorm (set x (VList (coll g)) r) | None => ORaise end.
Proof.
  intros Hx. cbn [MiniPy.exec]. rewrite (eval_call1 _ (EVar x) r _ Hx eq_refl), Hpg. destruct (parse_group g); reflexivity.
Qed.

(* from the loop head on, for a loop body that appends the letter f a *)
Lemma kx_recode s g1v g2v body f :
  (forall acc res a, exec body (set "res" (kv a) (kx_env s g1v g2v (VStr acc) res VNone)) =
                     ONorm (kx_env s g1v g2v (VStr (acc ++ [f a])) (kv a) VNone)) ->
  MiniPy.exec_list prim 0 [kx_for body; kx_s3; kx_s4] (kx_env s g1v g2v VNone VNone VNone) = ORet (K (map f s)).
Proof.
  intros Hstep. cbn [MiniPy.exec_list]. unfold kx_for. rewrite exec_seq.
  change (exec kx_a (kx_env s g1v g2v VNone VNone VNone)) with (ONorm (kx_env s g1v g2v (VStr []) VNone VNone)).
  cbv beta iota. erewrite exec_for_elems by apply elements_seq_val.
  destruct (append_loop "res" body (fun a => kv a) f (fun acc res => kx_env s g1v g2v (VStr acc) res VNone) Hstep s [] VNone)
    as [res' ->].
  cbn [app]. rewrite kx_tail, kx_ret. reflexivity.
Qed.

(* kappa_X on ANY sequence and ANY groups given as lists of strings (the second one optional / empty) *)
Theorem kappa_X_tie s g1 g2 :
  exec g_kappa_X (kx_env s (VList (map (fun x => sv x) g1)) (g2_val g2) VNone VNone VNone) =
  match parse_group g1 with
  | None => ORaise
  | Some l1 =>
      match g2 with
      | Some (x :: g) => match parse_group (x :: g) with
                         | None => ORaise
                         | Some l2 => ORet (K (map (letter2 l1 l2) s))
                         end
      | _ => ORet (K (map (letter1 l1) s))
      end
  end.
Proof.
  rewrite exec_spine, kx_spine_eq, kx_parts. cbn [MiniPy.exec_list].
  unfold kx_s0. erewrite kx_parse by reflexivity. destruct (parse_group g1) as [l1|] eqn:E1; [|reflexivity].
  change (set "grp1" (VList (coll g1)) _) with (kx_env s (VList (coll g1)) (g2_val g2) VNone VNone VNone).
  pose proof (fun b => Hmem g1 l1 b E1) as M1.
  destruct g2 as [[|x g]|]; cbn [g2_val map].
  - (* an empty second group *)
    change (exec kx_s1 (kx_env s (VList (coll g1)) (VList []) VNone VNone VNone)) with (ONorm (kx_env s (VList (coll g1)) (VList []) VNone VNone VNone)).
    cbv beta iota. rewrite kx_if_eq, exec_if_false by reflexivity.
    exact (kx_recode s _ _ _ _ (fun acc res a => kx_step1 s (coll g1) (VList []) l1 acc res VNone a M1)).
  - (* a non-empty second group *)
    unfold kx_s1. rewrite exec_if_true, (kx_parse _ _ (x :: g)) by reflexivity.
    destruct (parse_group (x :: g)) as [l2|] eqn:E2; [|reflexivity].
    pose proof (fun b => Hmem (x :: g) l2 b E2) as M2.
    assert (Hne : coll (x :: g) <> []).
    { intros Hc. apply (Hemp (x :: g) l2 E2) in Hc. subst l2. exact (parse_group_cons x g E2). }
    rewrite kx_if_eq, exec_if_true.
    2:{ change (truthy (VList (coll (x :: g))) = VBool true). destruct (coll (x :: g)); [congruence | reflexivity]. }
    exact (kx_recode s _ _ _ _ (fun acc res a => kx_step2 s (coll g1) (coll (x :: g)) l1 l2 acc res VNone a M1 M2)).
  - (* no second group *)
    change (exec kx_s1 (kx_env s (VList (coll g1)) VNone VNone VNone VNone)) with (ONorm (kx_env s (VList (coll g1)) VNone VNone VNone VNone)).
    cbv beta iota. rewrite kx_if_eq, exec_if_false by reflexivity.
    exact (kx_recode s _ _ _ _ (fun acc res a => kx_step1 s (coll g1) VNone l1 acc res VNone a M1)).
Qed.
End KX.

(* composition: calls are interpreted by RUNNING the translated callee *)
Definition kx_prim (kap : list ascii -> Q) (name : string) (args : list value) : value :=
  if String.eqb name "__parse_group" then
    match args with
    | [v] => match MiniPy.exec noprim 0 g_parse_group (pg_env v VNone) with
             | ORet w => w
             | ORaise => VExc
             | _ => VErr
             end
    | _ => VErr
    end
  else if String.eqb name "Sequence" then match args with [VStr s] => VStr s | _ => VErr end
  else if String.eqb name ".kappa" then match args with [VStr s] => VQ (kap s) | _ => VErr end
  else VErr.

Lemma letters2_pattern l1 l2 s :
  parse_chars (map (letter2 l1 l2) s) = Some (map (fun a => if mem_aa a l1 then Glu else if mem_aa a l2 then Lys else Gly) s) /\
  pat (map (fun a => if mem_aa a l1 then Glu else if mem_aa a l2 then Lys else Gly) s) = recode2 l1 l2 s.
Proof.
  split.
  - induction s as [|a s IH]; [reflexivity|]. cbn [map parse_chars]. rewrite IH. unfold letter2.
    destruct (mem_aa a l1); [reflexivity|]. destruct (mem_aa a l2); reflexivity.
  - unfold pat, recode2. rewrite map_map. apply map_ext. intros a. destruct (mem_aa a l1); [reflexivity|]. destruct (mem_aa a l2); reflexivity.
Qed.

Lemma letters1_pattern l1 s :
  parse_chars (map (letter1 l1) s) = Some (map (fun a => if mem_aa a l1 then Glu else Lys) s) /\
  pat (map (fun a => if mem_aa a l1 then Glu else Lys) s) = recode1 l1 s.
Proof.
  split.
  - induction s as [|a s IH]; [reflexivity|]. cbn [map parse_chars]. rewrite IH. unfold letter1. destruct (mem_aa a l1); reflexivity.
  - unfold pat, recode1. rewrite map_map. apply map_ext. intros a. destruct (mem_aa a l1); reflexivity.
Qed.

(* kappa_X end to end: the translated kappa_X, calling the translated __parse_group, on ANY sequence and groups, returns
   (for ANY kappa function of the constructed string) kappa of the E/K/G recoding — whose charge pattern is the model's
   recode2 / recode1 — or raises exactly when the model's parse_group rejects a group *)
Theorem kappa_X_end_to_end (kap : list ascii -> Q) s g1 g2 :
  MiniPy.exec (kx_prim kap) 0 g_kappa_X (kx_env s (VList (map (fun x => sv x) g1)) (g2_val g2) VNone VNone VNone) =
  match parse_group g1 with
  | None => ORaise
  | Some l1 =>
      match g2 with
      | Some (x :: g) => match parse_group (x :: g) with
                         | None => ORaise
                         | Some l2 => ORet (VQ (kap (map (letter2 l1 l2) s)))
                         end
      | _ => ORet (VQ (kap (map (letter1 l1) s)))
      end
  end.
Proof.
  apply (kappa_X_tie (kx_prim kap) (fun s => VStr s) (fun s => VQ (kap s)) (fun g => vdedup [] (map up g))).
  - intros g. unfold kx_prim. cbn [String.eqb Ascii.eqb Bool.eqb]. rewrite parse_group_tie, pg_accepts.
    destruct (parse_group g); reflexivity.
  - intros g l a H. apply pg_membership. exact H.
  - intros g l H. apply pg_empty. exact H.
  - reflexivity.
  - intros; split; discriminate.
  - reflexivity.
  - intros; split; discriminate.
Qed.
Print Assumptions kappa_X_end_to_end.

Section OM.
Variable kap : list ascii -> Q.
Local Notation exec := (MiniPy.exec (kx_prim kap) 0).
Local Notation run_loop := (MiniPy.run_loop (kx_prim kap) 0).

Definition om_env (s : list aa) (newseq res aug : value) : env :=
  [("self"%string, VNone); ("self.seq"%string, VStr (map aa_char s)); ("newseq"%string, newseq); ("res"%string, res); ("augmented_seq"%string, aug)].

Definition om_pre : list stmt := Eval vm_compute in match split_at_for g_Omega with Some (p, _, _) => p | None => [] end.
Definition om_body : stmt := Eval vm_compute in match split_at_for g_Omega with Some (_, (_, _, b), _) => b | None => SSkip end.
Definition om_rest : stmt := Eval vm_compute in match split_at_for g_Omega with Some (_, _, r) => r | None => SRaise end.
Lemma om_split : split_at_for g_Omega = Some (om_pre, ("res"%string, EVar "self.seq", om_body), om_rest). Proof. vm_compute. reflexivity. Qed.
Definition os_pre : list stmt := Eval vm_compute in match split_at_for g_Omega_seq with Some (p, _, _) => p | None => [] end.
Definition os_body : stmt := Eval vm_compute in match split_at_for g_Omega_seq with Some (_, (_, _, b), _) => b | None => SSkip end.
Definition os_rest : stmt := Eval vm_compute in match split_at_for g_Omega_seq with Some (_, _, r) => r | None => SRaise end.
Lemma os_split : split_at_for g_Omega_seq = Some (os_pre, ("res"%string, EVar "self.seq", os_body), os_rest). Proof. vm_compute. reflexivity. Qed.

Definition in_omega (a : aa) : bool := mem_aa a omega_group.

Lemma om_step s acc res aug a :
  exec om_body (set "res" (kv a) (om_env s (VStr acc) res aug)) =
  ONorm (om_env s (VStr (acc ++ [if in_omega a then "E"%char else "K"%char])) (kv a) aug).
Proof. destruct a; reflexivity. Qed.

Lemma os_step s acc res aug a :
  exec os_body (set "res" (kv a) (om_env s (VStr acc) res aug)) =
  ONorm (om_env s (VStr (acc ++ [if in_omega a then "X"%char else "O"%char])) (kv a) aug).
Proof. destruct a; reflexivity. Qed.

(* Omega = kappa of the E/K recoding by the {P,E,D,K,R} group, for ANY sequence and ANY kappa function *)
Theorem Omega_tie s : exec g_Omega (om_env s VNone VNone VNone) = ORet (VQ (kap (map (letter1 omega_group) s))).
Proof.
  rewrite (exec_split_for _ _ _ _ _ _ (om_env s VNone VNone VNone) (om_env s (VStr []) VNone VNone) _ om_split eq_refl (elements_seq_val s)).
  destruct (append_loop "res" om_body (fun a => kv a) _ (fun acc res => om_env s (VStr acc) res VNone)
              (fun acc res => om_step s acc res VNone) s [] VNone) as [r' ->].
  reflexivity.
Qed.

(* Omega_seq marks exactly the {P,E,D,K,R} positions *)
Theorem Omega_seq_tie s : exec g_Omega_seq (om_env s VNone VNone VNone) =
  ORet (VStr (map (fun b : bool => if b then "X"%char else "O"%char) (Model.Recode.Omega_seq s))).
Proof.
  rewrite (exec_split_for _ _ _ _ _ _ (om_env s VNone VNone VNone) (om_env s (VStr []) VNone VNone) _ os_split eq_refl (elements_seq_val s)).
  destruct (append_loop "res" os_body (fun a => kv a) _ (fun acc res => om_env s (VStr acc) res VNone)
              (fun acc res => os_step s acc res VNone) s [] VNone) as [r' ->].
  unfold Model.Recode.Omega_seq. rewrite map_map. reflexivity.
Qed.
End OM.
Print Assumptions Omega_tie.

(* the public getters (SequenceParameters) are exactly a return of the backend call with their own arguments *)
Lemma fw_get_Omega : g_fw_get_Omega = SReturn (ECall "SeqObj.Omega"%string []). Proof. reflexivity. Qed.
Lemma fw_get_Omega_sequence : g_fw_get_Omega_sequence = SReturn (ECall "SeqObj.Omega_seq"%string []). Proof. reflexivity. Qed.
Lemma fw_get_kappa_X : g_fw_get_kappa_X = SReturn (ECall "SeqObj.kappa_X"%string [EVar "grp1"%string; EVar "grp2"%string]). Proof. reflexivity. Qed.
