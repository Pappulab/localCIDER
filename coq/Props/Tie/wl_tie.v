(* Tie (C18): fingerprints of what the whole-function ties (minipy_wl_tie.v, minipy_wlsetup_tie.v) do not cover — the
   loop test and the output / log statements of run_normal_WL, the log line of __run_flatcheck, getBinSize and
   getBinCenters — and the move weights (1, 41.5, 69.3, 78.2) extracted from the source. *)
From Coq Require Import List QArith String.
From LC Require Import Gen.GWL.
Import ListNotations.
Local Open Scope string_scope.

Lemma wl_shapes_tie : g_wl_shapes_ok = true.
Proof. reflexivity. Qed.

Lemma wl_weights_tie : g_wl_weights =
  [("p_full_shuffle", 1 # 1); ("p_swap_charges", 83 # 2); ("p_swap_blocks", 693 # 10); ("p_cluster_charges", 391 # 5)]%Q.
Proof. reflexivity. Qed.
