(* Tie (C10) — SEMANTIC: Sequence.linearCompositions (behind get_linear_sequence_composition), translated from the working
   tree on every run into a Core.MiniPy term: the sanitising loop over the caller's groups (or the seven default groups
   written in the source), one call of linearDenistyOfAAs per group, the rows stacked in the order of the groups, the
   positions of the last call.  __parse_group (tied in minipy_kappax_tie.v) and linearDenistyOfAAs (tied in
   minipy_density_tie.v) are ORACLES here; np.vstack((a, b)) puts row b under the row or matrix a.  For EVERY list of
   groups: the result is (positions, the density row of every sanitised group in order) — a single row when there is one group. *)
From Coq Require Import List String QArith Lia.
From LC Require Import Core.MiniPy Core.MiniPyData Core.MiniPyExec Gen.GMiniPy.
Import ListNotations.
Local Open Scope Z_scope.

Definition is_row (v : value) : Prop := exists x l, v = VList (x :: l) /\ (forall y, x <> VList y) /\ is_bad x = false.
Definition vstack2 (d row : value) : value :=
  match d with
  | VList (VList a :: rest) => VList (VList a :: rest ++ [row])
  | VList _ => VList [d; row]
  | _ => VErr
  end.
Definition stack (rows : list value) : value := match rows with [r] => r | _ => VList rows end.

Section LinComp.
Variable pg : value -> value.                     (* self.__parse_group *)
Variable dens : value -> value -> value.          (* self.linearDenistyOfAAs(bloblen, group) *)
Variable pos : value.
Variable row : value -> value.
Variable wv : value.
Hypothesis pg_ok : forall g, is_bad (pg g) = false.
Hypothesis dens_spec : forall g, dens wv g = VList [pos; row g].
Hypothesis row_ok : forall g, is_row (row g).
Hypothesis pos_ok : is_bad pos = false.
Hypothesis wv_ok : is_bad wv = false.

Definition lc_prim (name : string) (args : list value) : value :=
  if String.eqb name "__parse_group" then match args with [g] => pg g | _ => VErr end
  else if String.eqb name "linearDenistyOfAAs" then match args with [w; g] => dens w g | _ => VErr end
  else if String.eqb name "np.vstack" then match args with [VList [d; r]] => vstack2 d r | _ => VErr end
  else VErr.
Local Notation exec := (MiniPy.exec lc_prim 0).
Local Notation eval := (MiniPy.eval lc_prim).

Lemma row_bad g : is_bad (row g) = false. Proof. destruct (row_ok g) as [x [l [E _]]]. now rewrite E. Qed.

Lemma stack_step (rows : list value) (g : value) : rows <> [] -> (forall r, In r rows -> is_row r) ->
  vstack2 (stack rows) (row g) = stack (rows ++ [row g]).
Proof.
  intros Hne Hr. destruct rows as [|r1 rows]; [congruence|]. destruct rows as [|r2 rows].
  - cbn [stack app]. destruct (Hr r1 (or_introl eq_refl)) as [x [l [E [Hx _]]]]. rewrite E. unfold vstack2.
    destruct x; try reflexivity. exfalso. eapply Hx. reflexivity.
  - cbn [stack app]. destruct (Hr r1 (or_introl eq_refl)) as [x [l [E _]]]. rewrite E. unfold vstack2. reflexivity.
Qed.
Lemma stack_bad rows : (forall r, In r rows -> is_row r) -> is_bad (stack rows) = false.
Proof. intros H. destruct rows as [|r1 [|r2 rows]]; try reflexivity. cbn [stack]. destruct (H r1 (or_introl eq_refl)) as [x [l [E _]]]. now rewrite E. Qed.

Definition lc_spine : list stmt := Eval vm_compute in spine g_linCompositions.
Definition lc_loop_body : stmt := Eval vm_compute in match nth 3 lc_spine SSkip with SFor _ _ b => b | _ => SSkip end.
Definition lc_first : stmt := Eval vm_compute in nth 0 lc_spine SSkip.
Lemma lc_parts : lc_spine = [lc_first; SAssign "tmp" (ECall "linearDenistyOfAAs" [EVar "bloblen"; EIndex (EVar "grps") (EConst (VInt 0))]);
                             SAssign "density" (EIndex (EVar "tmp") (EConst (VInt 1)));
                             SFor "group" (ESlice (EVar "grps") (EConst (VInt 1)) (EConst VNone)) lc_loop_body;
                             SReturn (EListLit [EIndex (EVar "tmp") (EConst (VInt 0)); EVar "density"])].
Proof. reflexivity. Qed.

Lemma lc_stack_loop : forall (gs : list value) (rows : list value) r, rows <> [] -> (forall x, In x rows -> is_row x) -> (forall g, In g gs -> is_bad g = false) ->
  lookup "bloblen" r = wv -> lookup "density" r = stack rows -> lookup "tmp" r = VList [pos; nth (List.length rows - 1) rows VNone] ->
  exists r' last, MiniPy.run_loop lc_prim 0 "group" lc_loop_body gs r = ONorm r' /\
    lookup "density" r' = stack (rows ++ map row gs) /\ lookup "tmp" r' = VList [pos; last].
Proof.
  induction gs as [|g gs IH]; intros rows r Hne Hr Hg Hw Hd Ht.
  - exists r, (nth (List.length rows - 1) rows VNone). cbn [map MiniPy.run_loop]. rewrite app_nil_r. repeat split; assumption.
  - cbn [map MiniPy.run_loop]. set (r0 := set "group" g r). unfold lc_loop_body at 1.
    assert (Bg : is_bad g = false) by (apply Hg; now left).
    assert (Et : eval (ECall "linearDenistyOfAAs" [EVar "bloblen"; EVar "group"]) r0 = VList [pos; row g]).
    { rewrite (eval_call2 _ _ _ _ wv g); [| rewrite eval_var; unfold r0; lk; exact Hw | rewrite eval_var; unfold r0; lk; reflexivity | exact wv_ok | exact Bg].
      unfold lc_prim. cbn [String.eqb Ascii.eqb Bool.eqb]. apply dens_spec. }
    rewrite (step_assign _ _ _ _ _ Et eq_refl).
    set (r1 := set "tmp" (VList [pos; row g]) r0).
    assert (Er : eval (EIndex (EVar "tmp") (EConst (VInt 1))) r1 = row g).
    { apply (eval_index_list _ _ _ [pos; row g] 1); [rewrite eval_var; unfold r1; lk; reflexivity | reflexivity | reflexivity]. }
    assert (Ev : eval (ECall "np.vstack" [EListLit [EVar "density"; EIndex (EVar "tmp") (EConst (VInt 1))]]) r1 = stack (rows ++ [row g])).
    { rewrite (eval_call1 _ _ _ (VList [stack rows; row g])); [| | reflexivity].
      - unfold lc_prim. cbn [String.eqb Ascii.eqb Bool.eqb]. apply stack_step; assumption.
      - apply eval_listlit2; [rewrite eval_var; unfold r1, r0; lk; exact Hd | exact Er | apply stack_bad; exact Hr | apply row_bad]. }
    assert (Hr' : forall x, In x (rows ++ [row g]) -> is_row x).
    { intros x Hx. apply in_app_or in Hx. destruct Hx as [Hx|[<-|[]]]; [apply Hr; exact Hx | apply row_ok]. }
    rewrite (exec_assign_ok _ _ _ _ Ev (stack_bad _ Hr')).
    destruct (IH (rows ++ [row g]) (set "density" (stack (rows ++ [row g])) r1)) as [r2 [last [E2 [Hd2 Ht2]]]].
    { intros C. apply (f_equal (@List.length _)) in C. rewrite app_length in C. cbn in C. lia. } { exact Hr'. } { intros x Hx. apply Hg. now right. }
    { lk. unfold r1, r0. lk. exact Hw. } { lk. reflexivity. }
    { lk. unfold r1. lk. rewrite app_length. cbn [List.length]. replace (List.length rows + 1 - 1)%nat with (List.length rows) by lia.
      rewrite app_nth2 by lia. rewrite Nat.sub_diag. reflexivity. }
    exists r2, last. split; [exact E2|]. split; [|exact Ht2]. rewrite Hd2, <- app_assoc. reflexivity.
Qed.

(* everything after the groups have been fixed *)
Lemma lc_rest (g0 : value) (gs : list value) r : is_bad g0 = false -> (forall g, In g gs -> is_bad g = false) ->
  lookup "bloblen" r = wv -> lookup "grps" r = VList (g0 :: gs) ->
  MiniPy.exec_list lc_prim 0 (skipn 1 lc_spine) r = ORet (VList [pos; stack (map row (g0 :: gs))]).
Proof.
  intros B0 Bg Hw Hgr. rewrite lc_parts. cbn [skipn].
  assert (Et : eval (ECall "linearDenistyOfAAs" [EVar "bloblen"; EIndex (EVar "grps") (EConst (VInt 0))]) r = VList [pos; row g0]).
  { rewrite (eval_call2 _ _ _ _ wv g0); [| rewrite eval_var; exact Hw | apply (eval_index_list _ _ _ (g0 :: gs) 0); [rewrite eval_var; exact Hgr | reflexivity | reflexivity] | exact wv_ok | exact B0].
    unfold lc_prim. cbn [String.eqb Ascii.eqb Bool.eqb]. apply dens_spec. }
  rewrite (step_assign_list _ _ _ _ _ Et eq_refl).
  set (r1 := set "tmp" (VList [pos; row g0]) r).
  assert (Er : eval (EIndex (EVar "tmp") (EConst (VInt 1))) r1 = row g0).
  { apply (eval_index_list _ _ _ [pos; row g0] 1); [rewrite eval_var; unfold r1; lk; reflexivity | reflexivity | reflexivity]. }
  rewrite (step_assign_list _ _ _ _ _ Er (row_bad g0)).
  set (r2 := set "density" (row g0) r1).
  rewrite exec_list_cons.
  rewrite (exec_for_list _ _ _ _ gs) by (apply (eval_slice_from1 _ _ _ _ g0); [rewrite eval_var; unfold r2, r1; lk; exact Hgr | reflexivity | reflexivity]).
  destruct (lc_stack_loop gs [row g0] r2) as [r3 [last [E3 [Hd3 Ht3]]]];
    [congruence | intros x [<-|[]]; apply row_ok | exact Bg | unfold r2, r1; lk; exact Hw | unfold r2; lk; reflexivity | unfold r2, r1; lk; reflexivity |].
  rewrite E3.
  assert (Hrows : forall x, In x (row g0 :: map row gs) -> is_row x).
  { intros x [<-|Hx]; [apply row_ok|]. apply in_map_iff in Hx. destruct Hx as [g [<- _]]. apply row_ok. }
  apply step_return_list; [|reflexivity].
  apply eval_listlit2; [apply (eval_index_list _ _ _ [pos; last] 0); [rewrite eval_var; exact Ht3 | reflexivity | reflexivity] | rewrite eval_var; exact Hd3 | exact pos_ok | apply stack_bad; exact Hrows].
Qed.

Lemma lc_sanitize : forall (gs acc : list value) r, (forall g, In g gs -> is_bad g = false) -> lookup "sanitized_groups" r = VList acc ->
  exists r', MiniPy.run_loop lc_prim 0 "group" (SAppend "sanitized_groups" (ECall "__parse_group" [EVar "group"])) gs r = ONorm r' /\
    lookup "sanitized_groups" r' = VList (acc ++ map pg gs) /\ lookup "bloblen" r' = lookup "bloblen" r.
Proof.
  induction gs as [|g gs IH]; intros acc r Bg Hs.
  - exists r. cbn [map MiniPy.run_loop]. rewrite app_nil_r. auto.
  - cbn [map MiniPy.run_loop]. set (r0 := set "group" g r).
    assert (Ec : eval (ECall "__parse_group" [EVar "group"]) r0 = pg g).
    { rewrite (eval_call1 _ _ _ g); [reflexivity | rewrite eval_var; unfold r0; lk; reflexivity | apply Bg; now left]. }
    rewrite (exec_append_ok _ _ _ acc (pg g)); [| unfold r0; lk; exact Hs | exact Ec | apply pg_ok].
    destruct (IH (acc ++ [pg g]) (set "sanitized_groups" (VList (acc ++ [pg g])) r0)) as [r1 [E1 [H1 H2]]].
    { intros x Hx. apply Bg. now right. } { lk. reflexivity. }
    exists r1. split; [exact E1|]. split; [rewrite H1, <- app_assoc; reflexivity|]. rewrite H2. unfold r0. lk. reflexivity.
Qed.

Definition default_groups : list value := Eval vm_compute in
  match MiniPy.exec (fun _ _ => VErr) 0 lc_first [("grps"%string, VList [])] with ONorm r => match lookup "grps" r with VList l => l | _ => [] end | _ => [] end.

(* the test that tells the two cases apart: len(grps) > 0 *)
Lemma lc_test r l : lookup "grps" r = VList l -> eval (EGt (ELen (EVar "grps")) (EConst (VInt 0))) r = VBool (Z.of_nat (List.length l) >? 0).
Proof. intros H. apply eval_gt_int; [apply (eval_len_list _ _ l), H | reflexivity]. Qed.

(* the caller's groups, sanitised in order *)
Lemma lc_first_user (g0 : value) (gs : list value) r : is_bad g0 = false -> (forall g, In g gs -> is_bad g = false) ->
  lookup "grps" r = VList (g0 :: gs) ->
  exists r', exec lc_first r = ONorm r' /\ lookup "grps" r' = VList (map pg (g0 :: gs)) /\ lookup "bloblen" r' = lookup "bloblen" r.
Proof.
  intros B0 Bg Hg. unfold lc_first. rewrite (exec_if_bool _ _ _ _ _ (lc_test r _ Hg)).
  change (Z.of_nat (List.length (g0 :: gs)) >? 0) with true. cbv iota.
  rewrite (step_assign "sanitized_groups" (EListLit []) _ _ (VList []) eq_refl eq_refl).
  rewrite exec_seq, (exec_for_list _ _ _ _ (g0 :: gs)) by (var Hg).
  destruct (lc_sanitize (g0 :: gs) [] (set "sanitized_groups" (VList []) r)) as [r1 [E1 [H1 H2]]].
  { intros x [<-|Hx]; [exact B0 | apply Bg, Hx]. } { lk. reflexivity. }
  rewrite E1. eexists. split.
  - apply exec_assign_ok; [rewrite eval_var; exact H1 | reflexivity].
  - lk. split; [reflexivity|]. rewrite H2. lk. reflexivity.
Qed.

(* no groups given: the seven groups written in the source, each appended as a literal list of one-letter strings *)
Definition lit (g : value) : expr := EListLit (map EConst (match g with VList l => l | _ => [] end)).
Lemma lc_first_default r : lookup "grps" r = VList [] ->
  exists r', exec lc_first r = ONorm r' /\ lookup "grps" r' = VList default_groups /\ lookup "bloblen" r' = lookup "bloblen" r.
Proof.
  intros Hg. unfold lc_first. rewrite (exec_if_bool _ _ _ _ _ (lc_test r _ Hg)).
  change (Z.of_nat (List.length (@nil value)) >? 0) with false. cbv iota.
  rewrite exec_spine. change (spine _) with (map (SAppend "grps") (map lit default_groups)).
  destruct (run_appends (prim:=lc_prim) (wfuel:=0) "grps" (map lit default_groups) default_groups [] r Hg) as [r' [E [H1 H2]]].
  { unfold default_groups. repeat (constructor; [split; [intros r'; reflexivity | reflexivity] |]). constructor. }
  exists r'. split; [exact E|]. split; [exact H1 | now apply H2].
Qed.

Lemma default_ok : forall g, In g default_groups -> is_bad g = false.
Proof. intros g H. cbv [default_groups In] in H. repeat (destruct H as [<-|H]; [reflexivity|]). destruct H. Qed.

Definition lc_env (w grps : value) : env := [("bloblen"%string, w); ("grps"%string, grps)].

(* WHOLE FUNCTION, groups given by the caller *)
Theorem linearCompositions_user_tie (g0 : value) (gs : list value) : is_bad g0 = false -> (forall g, In g gs -> is_bad g = false) ->
  exec g_linCompositions (lc_env wv (VList (g0 :: gs))) = ORet (VList [pos; stack (map (fun g => row (pg g)) (g0 :: gs))]).
Proof.
  intros B0 Bg. rewrite exec_spine. change (spine g_linCompositions) with lc_spine.
  change lc_spine with (lc_first :: skipn 1 lc_spine). rewrite exec_list_cons.
  destruct (lc_first_user g0 gs (lc_env wv (VList (g0 :: gs))) B0 Bg eq_refl) as [r1 [E1 [H1 H2]]]. rewrite E1.
  cbn [map] in H1. rewrite (lc_rest (pg g0) (map pg gs) r1); [| apply pg_ok | | rewrite H2; reflexivity | exact H1].
  - cbn [map]. rewrite map_map. reflexivity.
  - intros x Hx. apply in_map_iff in Hx. destruct Hx as [g [<- _]]. apply pg_ok.
Qed.

(* WHOLE FUNCTION, default groups (acidic, basic, charged, polar, aliphatic, aromatic, proline; not sanitised) *)
Theorem linearCompositions_default_tie :
  exec g_linCompositions (lc_env wv (VList [])) = ORet (VList [pos; stack (map row default_groups)]).
Proof.
  rewrite exec_spine. change (spine g_linCompositions) with lc_spine.
  change lc_spine with (lc_first :: skipn 1 lc_spine). rewrite exec_list_cons.
  destruct (lc_first_default (lc_env wv (VList [])) eq_refl) as [r1 [E1 [H1 H2]]]. rewrite E1.
  change default_groups with (hd VNone default_groups :: tl default_groups) in H1 |- *.
  rewrite (lc_rest (hd VNone default_groups) (tl default_groups) r1); [reflexivity | reflexivity | | rewrite H2; reflexivity | exact H1].
  intros x Hx. apply default_ok. right. exact Hx.
Qed.

(* seven rows, in the documented order *)
Lemma default_groups_are : map (fun g => match g with VList l => String.concat ""%string (map (fun c => match c with VStr s => string_of_list_ascii s | _ => "?"%string end) l) | _ => "?"%string end) default_groups
  = ["ED"; "RK"; "RKED"; "QNSTGHC"; "ALMIV"; "FYW"; "P"]%string.
Proof. reflexivity. Qed.
End LinComp.

Print Assumptions linearCompositions_user_tie.
Print Assumptions linearCompositions_default_tie.

(* non-vacuity: the term runs with concrete oracles and gives a 2-row matrix *)
Example lincomp_runs :
  MiniPy.exec (lc_prim (fun g => g) (fun _ g => VList [VList [VInt 0; VInt 1]; VList [VQ (1#2); g]])) 0 g_linCompositions
     (lc_env (VInt 5) (VList [VInt 7; VInt 8]))
  = ORet (VList [VList [VInt 0; VInt 1]; VList [VList [VQ (1#2); VInt 7]; VList [VQ (1#2); VInt 8]]]).
Proof. vm_compute. reflexivity. Qed.
