(* Tie (C04, C09): every cell of every literal table in data/aminoacids.py equals the published
   value transcribed in Spec/Tables.v; the shift/normalisation constants, the residue lists used
   by the getters, the 18 Da correction and the table each getter reads.  Exhaustive (finite). *)
From Coq Require Import List QArith String.
From LC Require Import Core.Residue Core.QTools Spec.Tables Gen.GTables Gen.GSeq.
Import ListNotations.
Local Open Scope string_scope.

Definition table_is (g : list (aa * Q)) (f : aa -> Q) : bool :=
  Nat.eqb (List.length g) 20 && forallb (fun a => oQeqb (lookupQ aa_eqb a g) (Some (f a))) all20.

Lemma kd_tie : table_is GTables.kd_original kd = true.          Proof. vm_compute. reflexivity. Qed.
Lemma ww_tie : table_is GTables.ww_original ww = true.          Proof. vm_compute. reflexivity. Qed.
Lemma hilser_tie : table_is GTables.ppii_hilser Spec.Tables.ppii_hilser = true.       Proof. vm_compute. reflexivity. Qed.
Lemma creamer_tie : table_is GTables.ppii_creamer Spec.Tables.ppii_creamer = true.    Proof. vm_compute. reflexivity. Qed.
Lemma kallenbach_tie : table_is GTables.ppii_kallenbach Spec.Tables.ppii_kallenbach = true.  Proof. vm_compute. reflexivity. Qed.
Lemma mw_tie : table_is GTables.mol_weight mw = true.           Proof. vm_compute. reflexivity. Qed.

Lemma pka_tie :
  Nat.eqb (List.length GTables.pka) 7 && forallb (fun a => oQeqb (lookupQ aa_eqb a GTables.pka) (Spec.Tables.pka a)) all20 = true.
Proof. vm_compute. reflexivity. Qed.

Lemma kd_shift_norm_tie : Qeq_bool GTables.kd_shift (45 # 10) && Qeq_bool GTables.kd_norm 9 = true.
Proof. vm_compute. reflexivity. Qed.

(* the hydropathy attribute of the residue table is the shifted KD scale *)
Lemma hydropathy_attribute_tie :
  assoc "hydropathy" GTables.attribute_source = Some "get_KD_shifted" /\
  assoc "PPII.hilser" GTables.attribute_source = Some "get_PPII_Hilser" /\
  assoc "PPII.creamer" GTables.attribute_source = Some "get_PPII_Creamer" /\
  assoc "PPII.kallenbach" GTables.attribute_source = Some "get_PPII_Kallenbach".
Proof. vm_compute. repeat split. Qed.

Lemma getter_sources_tie : GSeq.g_getter_sources =
  [("meanHydropathy", ["lookUpHydropathy"]); ("uverskyHydropathy", ["ONE_TO_THREE"; "get_KD_uversky"]);
   ("meanWWHydropathy", ["ONE_TO_THREE"; "get_WW_original"]); ("FPPII_chain", ["lookUpPPII"]);
   ("molecular_weight", ["get_molecular_weight_Da"]); ("linearDistOfHydropathy", ["ONE_TO_THREE"; "get_KD_uversky"]);
   ("amino_acid_fraction", []); ("charge_at_pH", ["get_pKa"])].
Proof. vm_compute. reflexivity. Qed.

Lemma disorder_tie :
  forallb (fun a => Bool.eqb (mem_aa a GSeq.g_disorder) (mem_aa a disorder_promoting)) all20 = true.
Proof. vm_compute. reflexivity. Qed.

Lemma aadict_tie : forallb (fun a => mem_aa a GSeq.g_aadict_keys) all20 = true /\ List.length GSeq.g_aadict_keys = 20%nat
                   /\ GSeq.g_mean_shapes_ok = true.
Proof. vm_compute. repeat split. Qed.

Theorem mw_correction_tie : forall total N, (GSeq.g_mw_correct total N == total - water * (N - 1))%Q.
Proof. intros. unfold GSeq.g_mw_correct, water. cbn zeta. ring. Qed.

(* FER adds the proline count to the charged count *)
Lemma fer_tie :
  forallb (fun '(p, n, N) => forallb (fun k =>
     Qeq_bool (GSeq.g_fer (inject_Z p) (inject_Z n) (inject_Z (N - p - n)) (inject_Z N) (inject_Z k))
              ((p + n + k) # Z.to_pos N)) [0; 1; 3]%Z)
   (flat_map (fun N => flat_map (fun p => map (fun n => (p, n, N)) (zrange 0 (N - p))) (zrange 0 N)) (zrange 1 14)) = true.
Proof. vm_compute. reflexivity. Qed.

Theorem mean_net_charge_tie : forall x, GSeq.g_mean_net_charge x = Qabs.Qabs x.
Proof. reflexivity. Qed.

Print Assumptions mw_correction_tie.
