(* Tie (C13) — SEMANTIC: the body of Sequence.validateSequence, translated from the working tree into a Core.MiniPy term
   on every run, is proved equal to Model.Normalise.validate (ASCII whitespace) for EVERY string of 8-bit characters; the
   empty result is the ZeroDivisionError of the proline-content line. *)
From Coq Require Import List String Ascii ZArith Bool.
From LC Require Import Core.Residue Core.MiniPy Core.MiniPyData Core.MiniPyExec Model.Normalise Gen.GMiniPy.
Import ListNotations.

Local Notation exec := (MiniPy.exec noprim 0).
Local Notation run_loop := (MiniPy.run_loop noprim 0).
Local Open Scope Z_scope.

(* the environment at the loop head; AAs holds the list literal of the source, which is MiniPyData.res_letters *)
Definition vd_env (sq acc : list ascii) (p : Z) (w : bool) (iv pc : value) : env :=
  [("self"%string, VNone); ("seq"%string, VStr sq); ("processed"%string, VStr acc); ("AAs"%string, VList res_letters);
   ("pos"%string, VInt p); ("messageWarned"%string, VBool w); ("i"%string, iv); ("prolineContent"%string, pc)].
Definition vd_env0 (sq : list ascii) : env :=
  [("self"%string, VNone); ("seq"%string, VStr sq); ("processed"%string, VNone); ("AAs"%string, VNone);
   ("pos"%string, VNone); ("messageWarned"%string, VNone); ("i"%string, VNone); ("prolineContent"%string, VNone)].

Definition vd_body : stmt := for_body (stmt_at 4 g_validateSequence).

(* one character: the tests of the body are membership in the letters and is_ws_py; computing with them left standing,
   then deciding them, gives the three ways an iteration can go *)
Lemma vd_body_step sq acc p w iv c :
  exec vd_body (set "i" (VStr [c]) (vd_env sq acc p w iv VNone)) =
  match aa_of_char c with
  | Some _ => ONorm (vd_env sq (acc ++ [c]) (p + 1) w (VStr [c]) VNone)
  | None => if is_ws_py c then ONorm (vd_env sq acc (p + 1) true (VStr [c]) VNone) else ORaise
  end.
Proof.
  lazy beta iota zeta delta [vd_body for_body stmt_at nth spine g_validateSequence MiniPy.exec MiniPy.eval lookup set String.eqb
                             Ascii.eqb Bool.eqb truthy v_in v_not bad2 vd_env].
  rewrite res_letter. destruct (aa_of_char c); [reflexivity|]. cbn [negb forallb]. rewrite andb_true_r.
  destruct (is_ws_py c); [|reflexivity]. destruct w; reflexivity.
Qed.

(* the model reads code points *)
Lemma eqb_codes x y : N.eqb (N_of_ascii x) (N_of_ascii y) = Ascii.eqb x y.
Proof.
  destruct (Ascii.eqb_spec x y) as [->|H]; [apply N.eqb_refl|]. apply N.eqb_neq. intros E. apply H.
  rewrite <- (ascii_N_embedding x), E. apply ascii_N_embedding.
Qed.
Lemma code_char c : aa_of_code (N_of_ascii c) = aa_of_char c.
Proof.
  unfold aa_of_code, aa_of_char. induction all20 as [|a l IH]; [reflexivity|].
  cbn [find]. unfold code at 1. rewrite eqb_codes, IH. reflexivity.
Qed.
Lemma space_char c : isspace_ascii_N (N_of_ascii c) = is_ws_py c.
Proof. unfold isspace_ascii_N, is_ws_py, nat_of_ascii. rewrite <- !leb_to_nat. reflexivity. Qed.

Lemma vd_loop sq cs : forall acc p w iv,
  match validate isspace_ascii_N (map N_of_ascii cs) with
  | Some t => exists p' w' iv', run_loop "i" vd_body (chars_val cs) (vd_env sq acc p w iv VNone) =
                               ONorm (vd_env sq (acc ++ map aa_char t) p' w' iv' VNone)
  | None => run_loop "i" vd_body (chars_val cs) (vd_env sq acc p w iv VNone) = ORaise
  end.
Proof.
  induction cs as [|c cs IH]; intros acc p w iv; cbn [validate map MiniPy.run_loop].
  - exists p, w, iv. now rewrite app_nil_r.
  - rewrite vd_body_step, code_char, space_char. destruct (aa_of_char c) as [a|] eqn:Ea.
    + specialize (IH (acc ++ [c]) (p + 1) w (VStr [c])). destruct (validate isspace_ascii_N (map N_of_ascii cs)) as [t|]; [|exact IH].
      cbn [map]. rewrite (aa_of_char_some c a Ea). rewrite <- app_assoc in IH. exact IH.
    + destruct (is_ws_py c); [apply IH | reflexivity].
Qed.

(* the generated term run on ANY (upper-cased) ASCII string = the model's validate; an empty result is the
   ZeroDivisionError of the proline-content line *)
Theorem validateSequence_tie cs :
  exec g_validateSequence (vd_env0 cs) =
  match validate isspace_ascii_N (map N_of_ascii cs) with
  | Some (a :: w) => ORet (VStr (map aa_char (a :: w)))
  | _ => ORaise
  end.
Proof.
  erewrite (exec_split_for _ _ _ _ vd_body _ _ (vd_env cs [] 0 false VNone VNone) (chars_val cs)) by reflexivity.
  pose proof (vd_loop cs cs [] 0 false VNone) as HL. destruct (validate isspace_ascii_N (map N_of_ascii cs)) as [t|].
  - destruct HL as (p' & w' & iv' & ->).
    (* after the loop: the proline line divides by len(processed); otherwise processed is returned *)
    destruct t as [|a t]; [reflexivity|]. vm_compute. reflexivity.
  - rewrite HL. reflexivity.
Qed.
Print Assumptions validateSequence_tie.
