(* Tie (C16) — SEMANTIC: the body of Sequence.setPhosPhoSites, translated from the working tree into a Core.MiniPy term on
   every run, is proved to leave exactly Model.Phospho's site list in self.phosphosites, for EVERY sequence, current site
   list and request (a list of ints, or one int), and never to raise.  Likewise get_phosphosites, clear_phosphosites,
   get_STY_residues and get_phosphosequence return what the model computes, and the public wrappers forward to them. *)
From Coq Require Import List String Ascii ZArith NArith Bool Lia.
From LC Require Import Core.Residue Core.MiniPy Core.MiniPyData Core.MiniPyExec Model.Phospho Proofs.Phospho Gen.GMiniPy.
Import ListNotations.

Local Notation exec := (MiniPy.exec noprim 0).
Local Notation exec_list := (MiniPy.exec_list noprim 0).
Local Notation run_loop := (MiniPy.run_loop noprim 0).
Local Open Scope Z_scope.

Definition sites_val (l : list nat) : value := VList (map (fun i => VInt (Z.of_nat i)) l).
Definition ps_env (s : list aa) (sites : list nat) (req tmp sv iv rv : value) : env :=
  [("self"%string, VNone); ("listOfPsites"%string, req); ("self.seq"%string, VStr (map aa_char s));
   ("self.phosphosites"%string, sites_val sites); ("tmp"%string, tmp); ("site"%string, sv); ("idx"%string, iv); ("res"%string, rv)].
Definition gp_env (sites : list nat) (acc iv : value) : env :=
  [("self"%string, VNone); ("self.phosphosites"%string, sites_val sites); ("newSites"%string, acc); ("i"%string, iv)].
Definition sty_env (s : list aa) (acc : list value) (idx : Z) (iv : value) : env :=
  [("self"%string, VNone); ("self.seq"%string, VStr (map aa_char s)); ("sites"%string, VList acc); ("idx"%string, VInt idx); ("i"%string, iv)].
Definition pq_env (s : list aa) (sites : list nat) (acc : value) (idx : value) (iv : value) : env :=
  [("self"%string, VNone); ("self.seq"%string, VStr (map aa_char s)); ("self.phosphosites"%string, sites_val sites);
   ("pseq"%string, acc); ("idx"%string, idx); ("i"%string, iv)].

(* evaluates an expression over one of the environments above: every name met is concrete, so lazy evaluation with the
   interpreter's functions unfolded runs to the end; existsb and veqb stay folded, the form the membership lemmas have *)
Ltac ev := lazy beta iota zeta delta [MiniPy.eval lookup set String.eqb Ascii.eqb Bool.eqb truthy v_in v_not cmp_int bad2 is_bad
                                      list_ascii_of_string ps_env gp_env sty_env pq_env sites_val].

Lemma sty_in2 a : existsb (veqb (VStr [aa_char a])) [VStr ["Y"%char]; VStr ["S"%char]; VStr ["T"%char]] = sty a.
Proof. destruct a; reflexivity. Qed.

(* the residue is one of the letters of a literal list that holds S, T and Y in whatever order *)
Lemma sty_in a l : (forall v, In v l <-> In v [VStr ["Y"%char]; VStr ["S"%char]; VStr ["T"%char]]) ->
  existsb (veqb (VStr [aa_char a])) l = sty a.
Proof.
  intros H. rewrite <- sty_in2. apply eq_true_iff_eq. rewrite !existsb_exists.
  split; intros [v [Hv E]]; exists v; (split; [apply H, Hv | exact E]).
Qed.

Definition ps_pre : list stmt := Eval vm_compute in
  match split_at_for g_setPhosPhoSites with Some (p, _, _) => p | None => [] end.
Definition ps_body : stmt := Eval vm_compute in
  match split_at_for g_setPhosPhoSites with Some (_, (_, _, b), _) => b | None => SSkip end.
Definition ps_rest : stmt := Eval vm_compute in
  match split_at_for g_setPhosPhoSites with Some (_, _, r) => r | None => SRaise end.

Lemma ps_split_eq : split_at_for g_setPhosPhoSites = Some (ps_pre, ("site"%string, EVar "listOfPsites", ps_body), ps_rest).
Proof. vm_compute. reflexivity. Qed.

Lemma ps_split : exists pre body rest,
  split_at_for g_setPhosPhoSites = Some (pre, ("site"%string, EVar "listOfPsites", body), rest).
Proof. exists ps_pre, ps_body, ps_rest. exact ps_split_eq. Qed.

(* a requested 1-based position lies outside the sequence, which is what the loop's `continue` tests, or on a residue *)
Lemma site_cases s z :
  ((z - 1 >=? Z.of_nat (List.length (map aa_char s))) || (z - 1 <? 0) = true /\ valid_site s z = false) \/
  (exists a, (z - 1 >=? Z.of_nat (List.length (map aa_char s))) || (z - 1 <? 0) = false /\ 0 <= z - 1 /\
             index_val (map aa_char s) (z - 1) = Some (aa_char a) /\ valid_site s z = sty a).
Proof.
  unfold valid_site. rewrite Z.geb_leb.
  destruct (Z.leb_spec 1 z) as [H1|H1]; [destruct (Z.leb_spec z (Z.of_nat (List.length s))) as [H2|H2]|].
  - right. destruct (nth_error s (Z.to_nat (z - 1))) as [a|] eqn:E; [|apply nth_error_None in E; lia]. exists a.
    rewrite index_val_Z, nth_error_map, E by (rewrite map_length; lia). rewrite map_length. repeat split; [|lia].
    apply orb_false_iff. split; [apply Z.leb_gt | apply Z.ltb_ge]; lia.
  - left. rewrite map_length. split; [|reflexivity]. apply orb_true_iff. left. apply Z.leb_le. lia.
  - left. split; [|reflexivity]. apply orb_true_iff. right. apply Z.ltb_lt. lia.
Qed.

Lemma ps_body_step s sites req tmp sv iv rv z :
  let sites' := psites (set_site {| pseq := s; psites := sites |} z) in
  exists rv', exec ps_body (set "site" (VInt z) (ps_env s sites req tmp sv iv rv)) = ONorm (ps_env s sites' req tmp (VInt z) (VInt (z - 1)) rv') \/
              exec ps_body (set "site" (VInt z) (ps_env s sites req tmp sv iv rv)) = OCont (ps_env s sites' req tmp (VInt z) (VInt (z - 1)) rv').
Proof.
  cbn zeta. unfold ps_body, set_site. cbn [pseq psites].
  rewrite step_assign with (v := VInt z), step_assign with (v := VInt (z - 1)) by reflexivity.
  (* if idx >= len(self.seq) or idx < 0: continue *)
  erewrite step_if by (erewrite eval_or_bool by (ev; reflexivity); reflexivity).
  destruct (site_cases s z) as [[E ->] | (a & E & H0 & Hi & ->)]; rewrite E; cbv iota.
  { exists rv. right. reflexivity. }
  rewrite step_skip, step_assign with (v := VStr [aa_char a])
    by (reflexivity || (eapply eval_index_str; [reflexivity | reflexivity | exact Hi])).
  rewrite exec_if_bool with (v := negb (sty a)) by (ev; rewrite sty_in by (intro; cbn [In]; tauto); reflexivity).
  destruct (sty a); cbn [negb]; [|exists (VStr [aa_char a]); left; reflexivity].
  rewrite exec_if_bool with (v := memn (Z.to_nat (z - 1)) sites)
    by (unfold memn; rewrite <- existsb_VInt_ints by exact H0; reflexivity).
  exists (VStr [aa_char a]). left. destruct (memn (Z.to_nat (z - 1)) sites); [reflexivity|].
  rewrite exec_append_ok with (l := ints sites) (v := VInt (z - 1)) by reflexivity.
  cbn [psites]. unfold ps_env, sites_val. rewrite map_app. cbn [map]. rewrite Z2Nat.id by exact H0. reflexivity.
Qed.

Lemma set_site_eta s sites z :
  set_site {| pseq := s; psites := sites |} z = {| pseq := s; psites := psites (set_site {| pseq := s; psites := sites |} z) |}.
Proof. unfold set_site. cbn [pseq psites]. destruct (valid_site s z); [destruct (memn _ sites)|]; reflexivity. Qed.

Lemma ps_loop s reqv tmp req : forall sites sv iv rv,
  exists sv' iv' rv', run_loop "site" ps_body (map VInt req) (ps_env s sites reqv tmp sv iv rv) =
    ONorm (ps_env s (psites (fold_left set_site req {| pseq := s; psites := sites |})) reqv tmp sv' iv' rv').
Proof.
  induction req as [|z req IH]; intros sites sv iv rv; cbn [map fold_left].
  - exists sv, iv, rv. reflexivity.
  - rewrite run_loop_cons, set_site_eta. destruct (ps_body_step s sites reqv tmp sv iv rv z) as [rv' [E|E]]; rewrite E; apply IH.
Qed.

(* whichever way the prelude leaves the request as a list of ints *)
Lemma ps_run s sites req tmp r :
  exec_list ps_pre r = ONorm (ps_env s sites (VList (map VInt req)) tmp VNone VNone VNone) ->
  exists sv iv rv, exec g_setPhosPhoSites r =
    ONorm (ps_env s (psites (fold_left set_site req {| pseq := s; psites := sites |})) (VList (map VInt req)) tmp sv iv rv).
Proof.
  intros Hpre. rewrite exec_split_for with (1 := ps_split_eq) (2 := Hpre) (xs := map VInt req) by reflexivity.
  destruct (ps_loop s (VList (map VInt req)) tmp req sites VNone VNone VNone) as (sv & iv & rv & E). rewrite E.
  exists sv, iv, rv. reflexivity.
Qed.

(* set_phosphosites(list of ints): the generated term leaves exactly Model.Phospho's site list in self.phosphosites
   (and never raises), for EVERY sequence, current site list and request *)
Theorem setPhosPhoSites_list_tie s sites req :
  exists tmp sv iv rv,
  exec g_setPhosPhoSites (ps_env s sites (VList (map VInt req)) VNone VNone VNone VNone) =
  ONorm (ps_env s (psites (fold_left set_site req {| pseq := s; psites := sites |})) (VList (map VInt req)) tmp sv iv rv).
Proof. exists VNone. apply ps_run. reflexivity. Qed.

(* set_phosphosites(int) *)
Theorem setPhosPhoSites_int_tie s sites z :
  exists tmp sv iv rv,
  exec g_setPhosPhoSites (ps_env s sites (VInt z) VNone VNone VNone VNone) =
  ONorm (ps_env s (psites (set_site {| pseq := s; psites := sites |} z)) (VList [VInt z]) tmp sv iv rv).
Proof. exists (VInt z). apply (ps_run s sites [z]). reflexivity. Qed.
Print Assumptions setPhosPhoSites_list_tie.

Theorem get_phosphosites_tie sites :
  exec g_get_phosphosites (gp_env sites VNone VNone) = ORet (VList (map VInt (get_sites {| pseq := []; psites := sites |}))).
Proof.
  assert (Hs : split_at_for g_get_phosphosites =
                Some ([SAssign "newSites" (EListLit [])], ("i"%string, EVar "self.phosphosites", SAppend "newSites" (EAdd (EVar "i") (EConst (VInt 1)))),
                      SReturn (EVar "newSites"))) by reflexivity.
  rewrite exec_split_for with (1 := Hs) (r1 := gp_env sites (VList []) VNone) (xs := ints sites) by reflexivity.
  destruct (append_loop (prim := noprim) (wfuel := 0%nat) "i" (SAppend "newSites" (EAdd (EVar "i") (EConst (VInt 1)))) (fun i => VN i) (fun i => VN (S i))
              (fun acc last => gp_env sites (VList acc) last)) with (t := sites) (acc := @nil value) (last := VNone) as [iv' E].
  { intros acc last i. rewrite Nat2Z.inj_succ, <- Z.add_1_r.
    rewrite exec_append_ok with (l := acc) (v := VInt (Z.of_nat i + 1)) by reflexivity. reflexivity. }
  rewrite E. unfold get_sites. cbn [psites]. rewrite map_map. reflexivity.
Qed.

Theorem clear_phosphosites_tie sites :
  exec g_clear_phosphosites [("self"%string, VNone); ("self.phosphosites"%string, sites_val sites)] =
  ONorm [("self"%string, VNone); ("self.phosphosites"%string, sites_val [])].
Proof. reflexivity. Qed.

Definition sty_from (k : nat) (s : list aa) : list Z :=
  map (fun p => Z.of_nat (S (fst p))) (filter (fun p => sty (snd p)) (combine (seq k (List.length s)) s)).

Lemma sty_from_cons k a l : sty_from k (a :: l) = (if sty a then [Z.of_nat (S k)] else []) ++ sty_from (S k) l.
Proof. unfold sty_from. cbn [List.length seq combine filter snd]. destruct (sty a); reflexivity. Qed.

Definition sty_pre : list stmt := Eval vm_compute in match split_at_for g_get_STY_residues with Some (p, _, _) => p | None => [] end.
Definition sty_body : stmt := Eval vm_compute in match split_at_for g_get_STY_residues with Some (_, (_, _, b), _) => b | None => SSkip end.
Definition sty_rest : stmt := Eval vm_compute in match split_at_for g_get_STY_residues with Some (_, _, r) => r | None => SRaise end.
Lemma sty_split_eq : split_at_for g_get_STY_residues = Some (sty_pre, ("i"%string, EVar "self.seq", sty_body), sty_rest).
Proof. vm_compute. reflexivity. Qed.

Lemma sty_body_step s acc k iv a :
  exec sty_body (set "i" (kv a) (sty_env s acc k iv)) = ONorm (sty_env s (acc ++ map VInt (if sty a then [k] else [])) (k + 1) (kv a)).
Proof.
  unfold sty_body. rewrite step_if with (t := sty a) by (ev; rewrite sty_in by (intro; cbn [In]; tauto); reflexivity).
  destruct (sty a).
  - rewrite step_append with (l := acc) (v := VInt k), exec_assign_ok with (v := VInt (k + 1)) by reflexivity. reflexivity.
  - rewrite step_skip, exec_assign_ok with (v := VInt (k + 1)) by reflexivity. cbn [map]. rewrite app_nil_r. reflexivity.
Qed.

Lemma sty_loop s l : forall k acc iv, exists iv',
  run_loop "i" sty_body (map (fun a => kv a) l) (sty_env s acc (Z.of_nat (S k)) iv) =
  ONorm (sty_env s (acc ++ map VInt (sty_from k l)) (Z.of_nat (S (k + List.length l))) iv').
Proof.
  induction l as [|a l IH]; intros k acc iv; cbn [map List.length].
  - exists iv. unfold sty_from. cbn. rewrite app_nil_r, Nat.add_0_r. reflexivity.
  - rewrite run_loop_cons, sty_body_step, Z.add_1_r, <- Nat2Z.inj_succ.
    destruct (IH (S k) (acc ++ map VInt (if sty a then [Z.of_nat (S k)] else [])) (kv a)) as [iv' E]. exists iv'.
    rewrite E, sty_from_cons, map_app, app_assoc, Nat.add_succ_r. reflexivity.
Qed.

Theorem get_STY_residues_tie s :
  exec g_get_STY_residues [("self"%string, VNone); ("self.seq"%string, VStr (map aa_char s)); ("sites"%string, VNone); ("idx"%string, VNone); ("i"%string, VNone)] =
  ORet (VList (map VInt (sty_positions s))).
Proof.
  rewrite exec_split_for with (1 := sty_split_eq) (r1 := sty_env s [] 1 VNone) (xs := map (fun a => kv a) s)
    by (reflexivity || apply elements_seq_val).
  destruct (sty_loop s s 0%nat [] VNone) as [iv' E]. change (Z.of_nat 1) with 1 in E. rewrite E. reflexivity.
Qed.

Definition pq_pre : list stmt := Eval vm_compute in match split_at_for g_get_phosphosequence with Some (p, _, _) => p | None => [] end.
Definition pq_body : stmt := Eval vm_compute in match split_at_for g_get_phosphosequence with Some (_, (_, _, b), _) => b | None => SSkip end.
Definition pq_rest : stmt := Eval vm_compute in match split_at_for g_get_phosphosequence with Some (_, _, r) => r | None => SRaise end.
Lemma pq_split_eq : split_at_for g_get_phosphosequence = Some (pq_pre, ("i"%string, EVar "self.seq", pq_body), pq_rest).
Proof. vm_compute. reflexivity. Qed.

Definition subst_from (k : nat) (sites : list nat) (l : list aa) : list aa :=
  map (fun p => if memn (fst p) sites then Glu else snd p) (combine (seq k (List.length l)) l).

(* every stored site is an S/T/Y position (the invariant set_phosphosites maintains: Proofs/Phospho) *)
Definition sites_sty (s : list aa) (sites : list nat) : Prop :=
  forall i, memn i sites = true -> exists a, nth_error s i = Some a /\ sty a = true.

Lemma pq_body_step s sites acc iv pre a l : sites_sty s sites -> s = pre ++ a :: l ->
  exec pq_body (set "i" (kv a) (pq_env s sites (VStr acc) (VN (List.length pre)) iv)) =
  ONorm (pq_env s sites (VStr (acc ++ [aa_char (if memn (List.length pre) sites then Glu else a)])) (VInt (Z.of_nat (List.length pre) + 1)) (kv a)).
Proof.
  intros Hinv Hs. unfold pq_body.
  rewrite step_if with (t := memn (List.length pre) sites) by (unfold memn; rewrite <- existsb_VN; reflexivity).
  destruct (memn (List.length pre) sites) eqn:Em.
  - (* a stored site holds S, T or Y, so the raise is not reached *)
    destruct (Hinv _ Em) as [a' [Hn Hsty]]. rewrite Hs, nth_error_app2, Nat.sub_diag in Hn by lia. injection Hn as <-.
    rewrite exec_seq_assoc, step_if with (t := negb (sty a)) by (ev; rewrite sty_in by (intro; cbn [In]; tauto); reflexivity).
    rewrite Hsty. cbn [negb]. cbv iota.
    rewrite step_skip, step_assign with (v := VStr (acc ++ ["E"%char])), exec_assign_ok with (v := VInt (Z.of_nat (List.length pre) + 1)) by reflexivity.
    reflexivity.
  - rewrite step_assign with (v := VStr (acc ++ [aa_char a]))
      by (reflexivity || (eapply eval_add_str; [reflexivity | eapply eval_index_str; [reflexivity | reflexivity | rewrite Hs; apply index_val_map_app_mid]])).
    rewrite exec_assign_ok with (v := VInt (Z.of_nat (List.length pre) + 1)) by reflexivity. reflexivity.
Qed.

Lemma pq_loop s sites : sites_sty s sites -> forall l pre acc iv, s = pre ++ l -> exists iv',
  run_loop "i" pq_body (map (fun a => kv a) l) (pq_env s sites (VStr acc) (VN (List.length pre)) iv) =
  ONorm (pq_env s sites (VStr (acc ++ map aa_char (subst_from (List.length pre) sites l))) (VN (List.length pre + List.length l)) iv').
Proof.
  intros Hinv. induction l as [|a l IH]; intros pre acc iv Hs; cbn [map List.length].
  - exists iv. unfold subst_from. cbn. rewrite app_nil_r, Nat.add_0_r. reflexivity.
  - rewrite run_loop_cons, (pq_body_step s sites acc iv pre a l Hinv Hs), Z.add_1_r, <- Nat2Z.inj_succ.
    destruct (IH (pre ++ [a]) (acc ++ [aa_char (if memn (List.length pre) sites then Glu else a)]) (kv a)) as [iv' E].
    { rewrite <- app_assoc. exact Hs. }
    exists iv'. rewrite app_length, Nat.add_1_r in E. rewrite E, <- app_assoc, Nat.add_succ_r. reflexivity.
Qed.

Theorem get_phosphosequence_tie s sites : sites_sty s sites ->
  exec g_get_phosphosequence (pq_env s sites VNone VNone VNone) =
  ORet (VStr (map aa_char (phosphoseq {| pseq := s; psites := sites |}))).
Proof.
  intros Hinv.
  rewrite exec_split_for with (r1 := pq_env s sites (VStr []) (VInt 0) VNone) (xs := map (fun a => kv a) s) (1 := pq_split_eq).
  2:{ unfold pq_pre. erewrite step_norm_list by (eapply exec_if_skip; ev; reflexivity). reflexivity. }
  2:{ apply elements_seq_val. }
  destruct (pq_loop s sites Hinv s [] [] VNone eq_refl) as [iv' E]. cbn [List.length] in E. change (Z.of_nat 0) with 0 in E. rewrite E. reflexivity.
Qed.

(* ... for every state reachable by set / clear calls the invariant holds (Proofs/Phospho.sites_in_range_STY) *)
Corollary get_phosphosequence_reachable s ops :
  let o := prun ops {| pseq := s; psites := [] |} in
  exec g_get_phosphosequence (pq_env s (psites o) VNone VNone VNone) = ORet (VStr (map aa_char (phosphoseq o))).
Proof.
  cbn zeta. pose proof (Proofs.Phospho.seq_unchanged ops {| pseq := s; psites := [] |}) as Hseq. cbn [pseq] in Hseq.
  rewrite get_phosphosequence_tie.
  - destruct (prun ops {| pseq := s; psites := [] |}) as [q p]. cbn [pseq psites] in *. subst q. reflexivity.
  - intros i Hi. apply Proofs.Phospho.memn_In in Hi. apply (Proofs.Phospho.sites_in_range_STY s ops i) in Hi. tauto.
Qed.
Print Assumptions get_phosphosequence_reachable.

(* the public getters (SequenceParameters) are exactly a return of the backend call with their own arguments *)
Lemma fw_get_phosphosites : g_fw_get_phosphosites = SReturn (ECall "SeqObj.get_phosphosites"%string []). Proof. reflexivity. Qed.
Lemma fw_get_all_phosphorylatable_sites : g_fw_get_all_phosphorylatable_sites = SReturn (ECall "SeqObj.get_STY_residues"%string []). Proof. reflexivity. Qed.
Lemma fw_get_phosphosequence : g_fw_get_phosphosequence = SReturn (ECall "SeqObj.get_phosphosequence"%string []). Proof. reflexivity. Qed.

(* the two public setters are exactly the backend call with their own argument, result discarded *)
Lemma fw_set_phosphosites : g_fw_set_phosphosites = SAssign "$_"%string (ECall "SeqObj.setPhosPhoSites"%string [EVar "phosphosites"%string]). Proof. reflexivity. Qed.
Lemma fw_clear_phosphosites : g_fw_clear_phosphosites = SAssign "$_"%string (ECall "SeqObj.clear_phosphosites"%string []). Proof. reflexivity. Qed.

(* get_full_phosphostatus_kappa_distribution: whatever the count of states is (it is only printed), the backend's distribution *)
Lemma full_phosphostatus_tie (prim : string -> list value -> value) (r : env) :
  is_bad (prim "SeqObj.calculateNumberDifferentPhosphoStates"%string []) = false ->
  is_bad (prim "SeqObj.calculateKappaDistOfPhosphoStates"%string []) = false ->
  MiniPy.exec prim 0 g_fw_get_full_phosphostatus r = ORet (prim "SeqObj.calculateKappaDistOfPhosphoStates"%string []).
Proof.
  intros H1 H2. unfold g_fw_get_full_phosphostatus. rewrite exec_seq.
  rewrite (exec_assign_ok _ _ _ _ (eval_call0 _ _) H1). apply exec_return_ok; [apply eval_call0 | exact H2].
Qed.

(* get_kappa_after_phosphorylation: with or without sites (the branch only prints), the backend's kappa_at_maxPhos *)
Lemma kappa_after_phosphorylation_tie (prim : string -> list value -> value) (r : env) l :
  prim "get_phosphosites"%string [] = VList l ->
  is_bad (prim "SeqObj.kappa_at_maxPhos"%string []) = false ->
  MiniPy.exec prim 0 g_fw_get_kappa_after_phosphorylation r = ORet (prim "SeqObj.kappa_at_maxPhos"%string []).
Proof.
  intros H1 H2. unfold g_fw_get_kappa_after_phosphorylation.
  rewrite exec_seq, exec_if_skip with (b := Z.of_nat (List.length l) =? 0) by (lazy beta iota zeta delta [MiniPy.eval map]; rewrite H1; reflexivity).
  apply exec_return_ok; [apply eval_call0 | exact H2].
Qed.

(* calculateNumberDifferentPhosphoStates: np.power(2, number of sites) *)
Lemma numstates_tie (prim : string -> list value -> value) (r : env) l :
  lookup "self.phosphosites" r = VList l -> is_bad (prim "np.power"%string [VInt 2; VInt (Z.of_nat (List.length l))]) = false ->
  MiniPy.exec prim 0 g_numstates r = ORet (prim "np.power"%string [VInt 2; VInt (Z.of_nat (List.length l))]).
Proof.
  intros H1 H2. unfold g_numstates. apply exec_return_ok; [|exact H2].
  lazy beta iota zeta delta [MiniPy.eval map]. rewrite H1. reflexivity.
Qed.
Print Assumptions full_phosphostatus_tie.
Print Assumptions kappa_after_phosphorylation_tie.
Print Assumptions numstates_tie.
