(* Tie (C07) — SEMANTIC: Sequence.sequence_charge_decoration, translated from the working tree on every run into a
   Core.MiniPy term (two nested range loops, indexing of the charge pattern, the accumulation, the final division).
   np.power(d, 0.5) is an ORACLE R; products, sums and the division are read as exact rational arithmetic.  For EVERY
   charge pattern and EVERY R the translated code returns (sum over m = 2..N, n = 1..m-1 of q_m q_n R(m-n)) / N,
   accumulated in the code's order; with R = sqrt this is the Sawle-Ghosh pair sum SCD_R of Props/C07. *)
From Coq Require Import List String QArith Lia.
From LC Require Import Core.MiniPy Core.MiniPyData Core.MiniPyExec Gen.GMiniPy.
Import ListNotations.
Local Open Scope Z_scope.

Section SCD.
Variable R : Z -> Q.                  (* np.power(d, 0.5) *)
Variable p : list Z.                  (* self.chargePattern *)
Local Notation N := (List.length p).

Definition sc_prim (name : string) (args : list value) : value :=
  if String.eqb name "np.power" then match args with [VInt d; VQ _] => VQ (R d) | _ => VErr end
  else if String.eqb name "qdiv" then
    match args with
    | [a; b] => match as_Q a, as_Q b with
                | Some x, Some y => if Qeq_bool y 0 then VExc else VQ (Qred (x / y))
                | _, _ => VErr
                end
    | _ => VErr
    end
  else VErr.
Local Notation exec := (MiniPy.exec sc_prim 0).
Local Notation eval := (MiniPy.eval sc_prim).

Definition q_at (i : nat) : Z := nth (i - 1) p 0.
Definition term (m n : nat) : Q := Qred (inject_Z (q_at m * q_at n) * R (Z.of_nat m - Z.of_nat n)).
Definition inner (m : nat) (a : Q) : Q := fold_left (fun a n => Qred (a + term m n)) (seq 1 (m - 1)) a.
Definition outer : Q := fold_left (fun a m => inner m a) (seq 2 (N - 1)) 0%Q.

Definition sc_spine : list stmt := Eval vm_compute in spine g_SCD.
Definition sc_inner : stmt := Eval vm_compute in match nth 1 sc_spine SSkip with SFor _ _ b => b | _ => SSkip end.
Definition sc_body : stmt := Eval vm_compute in match sc_inner with SFor _ _ b => b | _ => SSkip end.
Lemma sc_parts : sc_spine = [SAssign "total" (EConst (VInt 0));
                             SFor "m" (ERange (EConst (VInt 2)) (EAdd (EVar "self.len") (EConst (VInt 1)))) sc_inner;
                             SReturn (ECall "qdiv" [EVar "total"; EVar "self.len"])].
Proof. reflexivity. Qed.

Lemma idx (i : nat) : (1 <= i <= N)%nat -> index_val (map VInt p) (Z.of_nat i - 1) = Some (VInt (q_at i)).
Proof.
  intros H. unfold q_at. rewrite index_val_Z by (rewrite map_length; lia).
  replace (Z.to_nat (Z.of_nat i - 1)) with (i - 1)%nat by lia. rewrite nth_error_map, (nth_error_nth' _ 0); [reflexivity | lia].
Qed.

Lemma q_index x i r : (1 <= i <= N)%nat -> lookup "self.chargePattern" r = VList (map VInt p) -> lookup x r = VN i ->
  eval (EIndex (EVar "self.chargePattern") (ESub (EVar x) (EConst (VInt 1)))) r = VInt (q_at i).
Proof.
  intros Hi Hp Hx.
  apply (eval_index_list _ _ _ (map VInt p) (Z.of_nat i - 1)); [exact Hp | apply eval_sub_int; [exact Hx | reflexivity] | apply idx; exact Hi].
Qed.

(* total = total + q[m-1] * q[n-1] * power(m - n, 0.5) *)
Lemma sc_step (m n : nat) av a r : (1 <= n)%nat -> (n < m)%nat -> (m <= N)%nat -> numv av a ->
  lookup "self.chargePattern" r = VList (map VInt p) -> lookup "m" r = VN m -> lookup "n" r = VN n -> lookup "total" r = av ->
  exec sc_body r = ONorm (set "total" (VQ (Qred (a + term m n))) r).
Proof.
  intros Hn Hnm Hm Ha Hp Hmm Hnn Hav. unfold sc_body. apply exec_assign_ok; [|reflexivity].
  apply (eval_add_num_Q (EVar "total") _ _ _ _ _ Hav Ha), eval_mul_int_Q; [apply eval_mul_int; apply q_index; assumption || lia |].
  rewrite (eval_call2 _ _ _ _ (VInt (Z.of_nat m - Z.of_nat n)) (VQ (1 # 2))); [reflexivity | apply eval_sub_int; assumption | reflexivity ..].
Qed.

(* what both loops keep: the variables they read, and the running sum (the int 0 before the first pair, a rational after) *)
Definition sc_inv (a : Q) (r : env) : Prop :=
  exists av, numv av a /\ lookup "self.chargePattern" r = VList (map VInt p) /\ lookup "self.len" r = VN N /\ lookup "total" r = av.

Lemma sc_inner_run (m : nat) ns a r : (m <= N)%nat -> (forall n, In n ns -> (1 <= n < m)%nat) -> sc_inv a r -> lookup "m" r = VN m ->
  exists r', MiniPy.run_loop sc_prim 0 "n" sc_body (map (fun n => VN n) ns) r = ONorm r' /\
    sc_inv (fold_left (fun a n => Qred (a + term m n)) ns a) r'.
Proof.
  intros Hm Hin Inv Hmm.
  destruct (run_loop_fold (prim:=sc_prim) (wfuel:=0) "n" sc_body (fun n => VN n) (fun n => n) (fun a n => Qred (a + term m n))
              (fun a r => sc_inv a r /\ lookup "m" r = VN m) ns a r) as [r' [E [Inv' _]]].
  - intros n a0 r0 Hn [(av & Ha & Hp & Hl & Hav) Hm0]. destruct (Hin n Hn) as [H1 H2].
    eexists. split; [left; apply (sc_step m n av a0 _ H1 H2 Hm Ha); lk; assumption || reflexivity |].
    split; [| lk; exact Hm0]. exists (VQ (Qred (a0 + term m n))). split; [constructor|]. repeat split; lk; assumption || reflexivity.
  - split; assumption.
  - rewrite map_id in Inv'. exists r'. split; assumption.
Qed.

Lemma sc_outer_run ms a r : (forall m, In m ms -> (2 <= m <= N)%nat) -> sc_inv a r ->
  exists r', MiniPy.run_loop sc_prim 0 "m" sc_inner (map (fun m => VN m) ms) r = ONorm r' /\ sc_inv (fold_left (fun a m => inner m a) ms a) r'.
Proof.
  intros Hin Inv.
  destruct (run_loop_fold (prim:=sc_prim) (wfuel:=0) "m" sc_inner (fun m => VN m) (fun m => m) (fun a m => inner m a) sc_inv ms a r) as [r' [E Inv']]; [| exact Inv |].
  - intros m a0 r0 Hm Inv0. destruct (Hin m Hm) as [H1 H2]. set (r1 := set "m" (VN m) r0).
    destruct (sc_inner_run m (seq 1 (m - 1)) a0 r1 H2) as [r2 [E2 Inv2]].
    + intros n Hn. apply in_seq in Hn. lia.
    + destruct Inv0 as (av & Ha & Hp & Hl & Hav). exists av. unfold r1. repeat split; lk; assumption.
    + apply lookup_set_eq.
    + exists r2. split; [left | exact Inv2]. rewrite <- E2. apply (exec_for_range_nat "n" _ _ sc_body r1 1 m); [reflexivity | apply lookup_set_eq].
  - rewrite map_id in Inv'. exists r'. split; assumption.
Qed.

(* SCD on EVERY non-empty charge pattern, WHATEVER np.power returns *)
Theorem SCD_tie r : (1 <= N)%nat -> lookup "self.len" r = VN N -> lookup "self.chargePattern" r = VList (map VInt p) ->
  exec g_SCD r = ORet (VQ (Qred (outer / inject_Z (Z.of_nat N)))).
Proof.
  intros HN Hl Hp. rewrite exec_spine. change (spine g_SCD) with sc_spine. rewrite sc_parts.
  rewrite (step_const_list _ (VInt 0)) by reflexivity. set (r0 := set "total" (VInt 0) r).
  rewrite exec_list_cons, (exec_for_range_nat _ _ _ _ _ 2 (N + 1)); [| reflexivity | rewrite Nat2Z.inj_add; apply eval_add_int; [unfold r0; var Hl | reflexivity]].
  replace (N + 1 - 2)%nat with (N - 1)%nat by lia.
  destruct (sc_outer_run (seq 2 (N - 1)) 0%Q r0) as [r1 [E1 (av1 & N1 & _ & Hl1 & Ht1)]].
  { intros m Hm. apply in_seq in Hm. lia. }
  { exists (VInt 0). unfold r0. split; [apply (NI 0)|]. repeat split; lk; assumption || reflexivity. }
  rewrite E1. fold outer in N1. apply step_return_list; [| reflexivity].
  rewrite (eval_call2 _ _ _ _ av1 (VN N)); [| exact Ht1 | exact Hl1 | exact (numv_ok _ _ N1) | reflexivity].
  apply (qdiv_prim_num av1 outer (Z.of_nat N) N1). lia.
Qed.

(* the accumulated number is the plain double sum *)
Definition pair_sum : Q :=
  fold_left (fun a m => fold_left (fun a n => (a + inject_Z (q_at m * q_at n)%Z * R (Z.of_nat m - Z.of_nat n)%Z)%Q) (seq 1 (m - 1)) a) (seq 2 (N - 1)) 0%Q.
Lemma inner_eq m : forall ns a b, (a == b)%Q ->
  (fold_left (fun a n => Qred (a + term m n)) ns a == fold_left (fun a n => (a + inject_Z (q_at m * q_at n)%Z * R (Z.of_nat m - Z.of_nat n)%Z)%Q) ns b)%Q.
Proof.
  induction ns as [|n ns IH]; intros a b H; [exact H|]. cbn [fold_left]. apply IH. unfold term. rewrite !Qred_correct, H. reflexivity.
Qed.
Theorem outer_is_pair_sum : (outer == pair_sum)%Q.
Proof.
  unfold outer, pair_sum. generalize (seq 2 (N - 1)). intros ms.
  assert (G : forall a b, (a == b)%Q ->
     (fold_left (fun a m => inner m a) ms a ==
      fold_left (fun a m => fold_left (fun a n => (a + inject_Z (q_at m * q_at n)%Z * R (Z.of_nat m - Z.of_nat n)%Z)%Q) (seq 1 (m - 1)) a) ms b)%Q).
  { induction ms as [|m ms IH]; intros a b H; [exact H|]. cbn [fold_left]. apply IH. unfold inner. apply inner_eq. exact H. }
  apply G. reflexivity.
Qed.
End SCD.
Print Assumptions SCD_tie.
Print Assumptions outer_is_pair_sum.

Definition ex_pat : list Z := [1; -1; 0; 1].
Example SCD_runs : MiniPy.exec (sc_prim (fun d => inject_Z d)) 0 g_SCD [("self.len"%string, VInt 4); ("self.chargePattern"%string, VList (map VInt ex_pat))] =
                   ORet (VQ (Qred (outer (fun d => inject_Z d) ex_pat / inject_Z 4))) /\ (outer (fun d => inject_Z d) ex_pat == inject_Z 0)%Q.
Proof. split; vm_compute; reflexivity. Qed.

(* the public getters (SequenceParameters) are exactly a return of the backend call with their own arguments *)
Lemma fw_get_SCD : g_fw_get_SCD = SReturn (ECall "SeqObj.sequence_charge_decoration"%string []). Proof. reflexivity. Qed.
