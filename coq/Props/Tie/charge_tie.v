(* Tie (C02,C05,…): the charge pattern the code builds for each residue is Core.Residue.chg.
   Sources: data/aminoacids.py get_residue_charge + skeleton column order, residue.py,
   restable.py lookUpCharge, Sequence.__init__'s sign cascade.  Exhaustive over 20 residues. *)
From Coq Require Import List QArith String.
From LC Require Import Core.Residue Core.QTools Gen.GTables Gen.GSeq.
Import ListNotations.
Local Open Scope string_scope.

(* what Sequence.__init__ appends for residue a *)
Definition code_chg (a : aa) : option Z :=
  match lookupQ aa_eqb a GTables.residue_charge with
  | None => None
  | Some c => if negb (Qle_bool c 0) then assoc "gt0" GSeq.init_pattern
              else if negb (Qle_bool 0 c) then assoc "lt0" GSeq.init_pattern
              else assoc "else" GSeq.init_pattern
  end.

Lemma charge_attribute_source :
  assoc "charge" GTables.attribute_source = Some "get_residue_charge" /\
  assoc "letterCode3" GTables.attribute_source = Some "literal1" /\
  assoc "letterCode1" GTables.attribute_source = Some "literal2".
Proof. vm_compute. repeat split. Qed.

Lemma code_tables_cover_all20 :
  forallb (fun a => existsb (fun p => aa_eqb (fst p) a && aa_eqb (snd p) a) GTables.skeleton_rows
                    && existsb (fun p => aa_eqb (fst p) a && aa_eqb (snd p) a) GTables.one_to_three
                    && existsb (fun p => aa_eqb (fst p) a && aa_eqb (snd p) a) GTables.three_to_one) all20 = true
  /\ List.length GTables.skeleton_rows = 20%nat /\ List.length GTables.one_to_three = 20%nat
  /\ List.length GTables.three_to_one = 20%nat.
Proof. vm_compute. repeat split. Qed.

Theorem chg_tie : forall a, code_chg a = Some (chg a).
Proof. intros a. destruct a; vm_compute; reflexivity. Qed.

Lemma charge_symbols_tie : GTables.charge_symbols = [("+", 1); ("-", -1); ("0", 0)]%Z.
Proof. vm_compute. reflexivity. Qed.

Print Assumptions chg_tie.
