(* C16 — phosphosites are exactly the requested in-range S/T/Y positions; derived values follow. *)
From Coq Require Import ZArith List.
From LC Require Import Core.Residue Model.Phospho Proofs.Phospho.
Import ListNotations.

Theorem C16_sequence_never_changes ops o : pseq (prun ops o) = pseq o.
Proof. exact (seq_unchanged ops o). Qed.
Print Assumptions C16_sequence_never_changes.

(* first-set order, no repeats, exactly the valid requests since the last clear *)
Theorem C16_sites_spec s ops :
  psites (prun ops {| pseq := s; psites := [] |}) =
  addnew [] (map idx_of (filter (valid_site s) (since_clear [] ops))).
Proof. exact (sites_spec_fresh s ops). Qed.
Print Assumptions C16_sites_spec.

Theorem C16_no_repeats s ops : NoDup (psites (prun ops {| pseq := s; psites := [] |})).
Proof. exact (sites_nodup s ops). Qed.
Print Assumptions C16_no_repeats.

Theorem C16_only_requested_in_range_STY s ops i : In i (psites (prun ops {| pseq := s; psites := [] |})) ->
  (i < List.length s)%nat /\ (exists a, nth_error s i = Some a /\ sty a = true) /\
  In (Z.of_nat (S i)) (since_clear [] ops).
Proof. exact (sites_in_range_STY s ops i). Qed.
Print Assumptions C16_only_requested_in_range_STY.

Theorem C16_every_valid_request_recorded s ops z : In z (since_clear [] ops) -> valid_site s z = true ->
  In (idx_of z) (psites (prun ops {| pseq := s; psites := [] |})).
Proof. exact (requested_valid_recorded s ops z). Qed.
Print Assumptions C16_every_valid_request_recorded.

Theorem C16_clear_empties o : psites (pstep o PClear) = [].
Proof. reflexivity. Qed.

Theorem C16_phosphosequence o i :
  nth_error (phosphoseq o) i = option_map (fun a => if memn i (psites o) then Glu else a) (nth_error (pseq o) i).
Proof. exact (phosphoseq_spec o i). Qed.
Print Assumptions C16_phosphosequence.

Theorem C16_phosphosequence_without_sites s : subst_at s [] = s.
Proof. exact (phosphoseq_no_sites s). Qed.

Theorem C16_distribution_has_2_pow_k_entries o : List.length (states o) = (2 ^ List.length (psites o))%nat.
Proof. exact (states_length o). Qed.
Print Assumptions C16_distribution_has_2_pow_k_entries.

Theorem C16_distribution_binary_counting_order o j : (j < 2 ^ List.length (psites o))%nat ->
  nth j (states o) ([], []) =
  (bits_msb (List.length (psites o)) j,
   subst_at (pseq o) (chosen (psites o) (bits_msb (List.length (psites o)) j))).
Proof. exact (states_nth o j). Qed.
Print Assumptions C16_distribution_binary_counting_order.

Example C16_example :
  get_sites (prun [PSet [0; -1; 9; 100; 5; 5; 1; 2]%Z; PSet [8]%Z]
                  {| pseq := [Ser; Lys; Lys; Lys; Tyr; Lys; Lys; Thr]; psites := [] |}) = [5; 1; 8]%Z
  /\ bits_msb 3 5 = [true; false; true].
Proof. vm_compute. split; reflexivity. Qed.
