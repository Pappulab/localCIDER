(* C17 — shuffles and moves only rearrange, keep frozen sites, stay self-consistent. *)
From Coq Require Import List Permutation.
From LC Require Import Core.Residue Model.Moves Proofs.Moves Proofs.MovesFrame.
Import ListNotations.

(* any move, any outcome of its random choices accepted by the model: the child is a rearrangement of
   the parent, its charge bookkeeping is that of a fresh object on its sequence, and a carried
   delta-max is the delta-max of that sequence *)
Theorem C17_every_move o m c : MInv o -> apply_move o m = Some c -> Permutation (mseq c) (mseq o) /\ MInv c.
Proof. exact (move_spec o m c). Qed.
Print Assumptions C17_every_move.

Theorem C17_chains_of_moves ms o c : MInv o -> apply_chain o ms = Some c -> Permutation (mseq c) (mseq o) /\ MInv c.
Proof. exact (chain_spec ms o c). Qed.
Print Assumptions C17_chains_of_moves.

Theorem C17_fresh_object_consistent s : MInv (mfresh s).
Proof. exact (mfresh_inv s). Qed.

Theorem C17_pair_swap_keeps_other_positions o i j k : (k < List.length (mseq o))%nat -> k <> i -> k <> j ->
  nth k (mseq (swapRes o i j)) Ala = nth k (mseq o) Ala.
Proof. exact (swapRes_untouched o i j k). Qed.
Print Assumptions C17_pair_swap_keeps_other_positions.

Theorem C17_charge_swap_keeps_frozen o fr ct a b c : MInv o -> swapRand o fr ct a b = Some c ->
  Permutation (mseq c) (mseq o) /\ MInv c /\
  (forall k, In k fr -> (k < List.length (mseq o))%nat -> nth k (mseq c) Ala = nth k (mseq o) Ala).
Proof. exact (swapRand_spec o fr ct a b c). Qed.
Print Assumptions C17_charge_swap_keeps_frozen.

Theorem C17_full_shuffle_keeps_frozen o fr perm c : MInv o -> fullShuffle o fr perm = Some c ->
  Permutation (mseq c) (mseq o) /\ MInv c /\
  (forall k, In k fr -> (k < List.length (mseq o))%nat -> nth k (mseq c) Ala = nth k (mseq o) Ala).
Proof. exact (fullShuffle_spec o fr perm c). Qed.
Print Assumptions C17_full_shuffle_keeps_frozen.

Theorem C17_block_swap o bs i1 i2 c : MInv o -> blockSwap o bs i1 i2 = Some c -> Permutation (mseq c) (mseq o) /\ MInv c.
Proof. exact (blockSwap_spec o bs i1 i2 c). Qed.
Theorem C17_clustering o st sz sw c : MInv o -> clusterMove o st sz sw = Some c -> Permutation (mseq c) (mseq o) /\ MInv c.
Proof. exact (clusterMove_spec o st sz sw c). Qed.
Print Assumptions C17_clustering.

(* what the two remaining moves leave alone: every position outside the two exchanged index ranges (block swap),
   outside the cluster and the sampled swap positions (clustering), keeps its residue *)
Theorem C17_block_swap_keeps_other_positions o bs i1 i2 c k : blockSwap o bs i1 i2 = Some c ->
  (k < List.length (mseq o))%nat ->
  (k < i1 \/ i1 + (bs - 1) <= k)%nat -> (k < i2 + bs - 1 \/ i2 + bs - 1 + (bs - 1) <= k)%nat ->
  nth k (mseq c) Ala = nth k (mseq o) Ala.
Proof. exact (blockSwap_untouched o bs i1 i2 c k). Qed.
Print Assumptions C17_block_swap_keeps_other_positions.

Theorem C17_clustering_keeps_other_positions o st sz sw c k : clusterMove o st sz sw = Some c ->
  (k < List.length (mseq o))%nat -> (k < st \/ st + sz <= k)%nat -> ~ In k sw ->
  nth k (mseq c) Ala = nth k (mseq o) Ala.
Proof. exact (clusterMove_untouched o st sz sw c k). Qed.
Print Assumptions C17_clustering_keeps_other_positions.

(* block swap, completely: the child is the parent read in the order [0,i1) [j,j+L) [i1+L,j) [i1,i1+L) [j+L,n), L = bs-1, j = i2+bs-1
   (the code's min:max slices exchange bs-1 residues of each block, in order) *)
Theorem C17_block_swap_closed_form o bs i1 i2 c : blockSwap o bs i1 i2 = Some c ->
  let n := List.length (mseq o) in let L := (bs - 1)%nat in let j := (i2 + bs - 1)%nat in
  mseq c = rearrange Ala (mseq o)
             (seq 0 i1 ++ seq j L ++ seq (i1 + L) (j - (i1 + L)) ++ seq i1 L ++ seq (j + L) (n - (j + L))).
Proof. exact (blockSwap_closed_form o bs i1 i2 c). Qed.
Print Assumptions C17_block_swap_closed_form.

Example C17_frame_nonvacuous :
  exists c, blockSwap (mfresh [Glu; Lys; Gly; Ser; Asp; Arg; Gly; Ala]) 3 0 2 = Some c /\
            nth 2 (mseq c) Ala = Gly /\ nth 0 (mseq c) Ala <> Glu.
Proof. eexists. split; [vm_compute; reflexivity|]. split; [reflexivity | discriminate]. Qed.

(* the frozen clause is false for block swap (and clustering): known finding D9 *)
Theorem C17_block_swap_frozen_refuted : exists o bs i1 i2 c k,
  blockSwap o bs i1 i2 = Some c /\ nth k (mseq c) Ala <> nth k (mseq o) Ala.
Proof. exact block_swap_moves_frozen_positions. Qed.

Example C17_nonvacuous :
  exists c, apply_chain (mfresh [Glu; Lys; Gly; Ser; Asp; Arg; Gly])
              [MKappa; MSwap 0 3; MShuffle [0%nat] [5; 2; 6; 1; 4; 3]%nat; MBlock 2 0 1; MCluster 1 2 [5%nat; 4%nat]] = Some c.
Proof. eexists. vm_compute. reflexivity. Qed.
