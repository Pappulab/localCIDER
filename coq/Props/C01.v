(* C01 — kappa = delta/delta-max, -1 exactly when delta-max = 0, the (1,1.1) -> 1 rule,
   and the range [0,1].  The range clause is FALSE of the documented delta-max heuristic
   (kappa_range_refuted, witness KEEEEK): recorded as known finding D1. *)
From Coq Require Import QArith List.
From LC Require Import Spec.Delta Model.Delta Proofs.DeltaMax Proofs.Flat Proofs.FlatBounded.

Theorem C01_model_is_spec l : (m_kappa l == kappa l)%Q.
Proof. exact (m_kappa_spec l). Qed.
Print Assumptions C01_model_is_spec.

Theorem C01_sentinel_iff_dmax_zero l : (kappa l == -1)%Q <-> (dmax_of l == 0)%Q.
Proof. exact (kappa_sentinel_iff l). Qed.
Print Assumptions C01_sentinel_iff_dmax_zero.

Theorem C01_ratio_with_clamp l : ~ (dmax_of l == 0)%Q -> kappa l = clamp (delta l / dmax_of l)%Q.
Proof. exact (kappa_ratio l). Qed.
Print Assumptions C01_ratio_with_clamp.

Theorem C01_nonneg_or_sentinel l : kappa l = (-1)%Q \/ (0 <= kappa l)%Q.
Proof. exact (kappa_nonneg_or_sentinel l). Qed.
Print Assumptions C01_nonneg_or_sentinel.

Theorem C01_le1_iff l : (0 < dmax_of l)%Q -> ((kappa l <= 1)%Q <-> (delta l < (11 # 10) * dmax_of l)%Q).
Proof. exact (kappa_le1_iff l). Qed.
Print Assumptions C01_le1_iff.

Theorem C01_family_in_range p n z l : In l (cands p n z) -> (0 < dmax p n z)%Q ->
  natcomp l = (p, n, z) -> (kappa l <= 1)%Q.
Proof. exact (kappa_family_le1 p n z l). Qed.
Print Assumptions C01_family_in_range.

(* delta-max = 0 means no arrangement has any variance: bounded characterisation + unbounded converse *)
Theorem C01_dmax0_only_flat_upto_16 :
  forallb (fun c => let '(p, n, z) := c in implb (Qeq_bool (dmax p n z) 0) (flat_b p n z)) (all_comps 16) = true.
Proof. exact dmax0_flat_upto_16. Qed.
Print Assumptions C01_dmax0_only_flat_upto_16.

Theorem C01_flat_all_arrangements p n z l : flat_b p n z = true -> natcomp l = (p, n, z) -> (delta l == 0)%Q.
Proof. exact (flat_all_arrangements p n z l). Qed.
Print Assumptions C01_flat_all_arrangements.

(* the range clause, refuted on the faithful model: kappa(KEEEEK) = 98/53 *)
Theorem C01_range_refuted : exists l, (1 < kappa l)%Q.
Proof. exact kappa_range_refuted. Qed.
Print Assumptions C01_range_refuted.
