(* Core/MiniPy.v — a deep embedding of the small Python fragment in which localCIDER's character / site
   loops are written (for- and while-loops over strings and lists, if-chains, string, list and dictionary
   building, raise, continue, return), with a total interpreter.  tools/py2coq/g_minipy.py translates the
   source of a function into a term of type [stmt] on every run; the files Props/Tie/minipy_*_tie.v prove
   that running that term agrees with the hand-written models for ALL inputs.  The rules by which they
   step through a term are here and in Core/MiniPyExec.v; what the interpreter's data functions do on
   in-range arguments is in Core/MiniPyData.v. *)
From Coq Require Import List String Ascii QArith.
Import ListNotations.
Local Open Scope Z_scope.

Inductive value :=
| VNone
| VBool (b : bool)
| VInt (z : Z)
| VQ (q : Q)        (* a Python float, tracked as the exact rational of its decimal literal / exact arithmetic: normalised by the
                       arithmetic of the interpreter; primitives and oracles may return any rational *)
| VStr (s : list ascii)
| VList (l : list value)
| VDict (d : list (value * value))   (* insertion-ordered; the first binding of a key is the one looked up *)
| VOpaque          (* a number whose value the fragment does not track (a float quotient) *)
| VExc             (* a Python exception raised while evaluating (IndexError, ZeroDivisionError, ValueError) *)
| VErr.            (* outside the fragment: ill-typed use; never produced on the tied functions (shown by the ties) *)

(* How the translator (tools/py2coq/g_minipy.py) names what the fragment does not interpret itself.
   A call [ECall name args] gets its meaning from the primitive table of the tie that runs the term:
     "m", "m|kw1|kw2"          self.m(args, kw1 = .., kw2 = ..): another method of the same object; the keyword
                               values follow the positional arguments
     ".m|kw", ".field"         a method or a field of an object held in an attribute or a local variable; the
                               object is the first argument
     "SeqObj.m", "ComplexityObject.m"   forwarding to the backend object
     "Class|kw"                construction of another object of the library with keyword arguments
     "rand.sample#k", "rand.shuffle#k", ...   the k-th random draw in source order: an oracle indexed by its call site
     "qdiv", "fdiv"            a / b read as exact rational division; float(a) / b with the rational left to the tie
     "int_div", "floordiv"     int(a / b) and a // b
     "abs", "pow", "sum", "np.x", ...   builtins and numpy functions, each given a meaning per tie (DESIGN.md I.7)
   Variables the source does not have: "$i", "$x" are the index and the element of a translated np.where / filtering
   comprehension; "$1", "$2" hold what was hoisted out of an expression (x.pop(), a tuple result about to be
   unpacked); "$_" receives the result of a call made only for its effect or its exception. *)
Inductive expr :=
| EConst (v : value)
| EVar (x : string)
| EEq (a b : expr) | ENe (a b : expr)
| ELt (a b : expr) | ELe (a b : expr) | EGt (a b : expr) | EGe (a b : expr)
| EIn (a b : expr) | ENotIn (a b : expr)
| ENot (a : expr) | EAnd (a b : expr) | EOr (a b : expr)
| EAdd (a b : expr) | ESub (a b : expr) | EMul (a b : expr) | EDiv (a b : expr)
| ELen (a : expr)
| EIndex (a i : expr)
| ECount (a b : expr)
| EIsSpace (a : expr)
| EUpper (a : expr)
| EIsInt (a : expr)
| EToInt (a : expr)
| EStrip (a : expr)
| ELower (a : expr)
| EIsDict (a : expr)
| EComp (x : string) (body src : expr)        (* [body for x in src] *)
| ESetOf (a : expr)                          (* set(list): modelled as the list without repeats (first occurrences); only
                                                membership and order-insensitive iteration may be applied to it *)
| EIsStr (a : expr)
| EListOf (a : expr)                         (* list(x): the elements of a string / list / dictionary, as a list *)
| EJoin (sep : list ascii) (a : expr)        (* sep.join(list of strings) *)
| EMod (a b : expr)
| EFormat (template : list ascii) (args : list expr)    (* "...%s..." % (a, b, ...) with string arguments *)
| ESlice (a lo hi : expr)       (* a[lo:hi]; a bound may be EConst VNone *)
| ECall (f : string) (args : list expr)   (* a call of another function of the library: interpreted by the table [prim] *)
| EListLit (l : list expr)
| ERange (lo hi : expr)                   (* range(lo, hi) / np.arange(lo, hi), as the list of its integers *)
| ESetDiff (a b : expr)                   (* set(a) - b : the elements of a (in a's order) that are not in b *)
| ESorted (a : expr)                      (* sorted(list of integers) *)
| EEnumFilter (ix x : string) (cond body src : expr).   (* [body for ix, x in enumerate(src) if cond] *)

Inductive stmt :=
| SSkip
| SSeq (a b : stmt)
| SAssign (x : string) (e : expr)
| SAppend (x : string) (e : expr)
| SSetItem (x : string) (k e : expr)      (* x[k] = e  for a dictionary x *)
| SIf (c : expr) (a b : stmt)
| SFor (x : string) (e : expr) (body : stmt)
| SWhile (c : expr) (body : stmt)
| SRaise
| SReturn (e : expr)
| SContinue
| SBreak.

Definition env := list (string * value).

Fixpoint lookup (x : string) (r : env) : value :=
  match r with
  | [] => VErr
  | (y, v) :: r' => if String.eqb x y then v else lookup x r'
  end.

Fixpoint set (x : string) (v : value) (r : env) : env :=
  match r with
  | [] => [(x, v)]
  | (y, w) :: r' => if String.eqb x y then (y, v) :: r' else (y, w) :: set x v r'
  end.

Lemma lookup_set_eq x v r : lookup x (set x v r) = v.
Proof.
  induction r as [|[y w] r IH]; cbn [set lookup]; [now rewrite String.eqb_refl|].
  destruct (String.eqb x y) eqn:E; cbn [lookup]; rewrite E; [reflexivity | exact IH].
Qed.
Lemma lookup_set_neq x y v r : String.eqb x y = false -> lookup x (set y v r) = lookup x r.
Proof.
  intros H. induction r as [|[z w] r IH]; cbn [set lookup]; [now rewrite H|].
  destruct (String.eqb y z) eqn:E; cbn [lookup].
  - apply String.eqb_eq in E. subst z. now rewrite H.
  - destruct (String.eqb x z); [reflexivity | exact IH].
Qed.

Fixpoint ascii_list_eqb (a b : list ascii) : bool :=
  match a, b with
  | [], [] => true
  | x :: a', y :: b' => Ascii.eqb x y && ascii_list_eqb a' b'
  | _, _ => false
  end.

Fixpoint veqb (a b : value) {struct a} : bool :=
  match a, b with
  | VNone, VNone => true
  | VBool x, VBool y => Bool.eqb x y
  | VInt x, VInt y => Z.eqb x y
  | VQ x, VQ y => Qeq_bool x y
  | VInt x, VQ y => Qeq_bool (inject_Z x) y
  | VQ x, VInt y => Qeq_bool x (inject_Z y)
  | VStr x, VStr y => ascii_list_eqb x y
  | VList x, VList y =>
      (fix go (x y : list value) : bool :=
         match x, y with
         | [], [] => true
         | u :: x', w :: y' => veqb u w && go x' y'
         | _, _ => false
         end) x y
  | _, _ => false
  end.

(* l[i] = v with Python's index rules; None = IndexError *)
Definition list_set {A} (l : list A) (i : Z) (v : A) : option (list A) :=
  let n := Z.of_nat (List.length l) in
  let j := if i <? 0 then n + i else i in
  if (j <? 0) || (n <=? j) then None
  else Some (firstn (Z.to_nat j) l ++ v :: skipn (S (Z.to_nat j)) l).

Fixpoint vdedup (seen l : list value) : list value :=
  match l with
  | [] => []
  | v :: l' => if existsb (veqb v) seen then vdedup seen l' else v :: vdedup (v :: seen) l'
  end.

Fixpoint join_strs (sep : list ascii) (l : list value) : option (list ascii) :=
  match l with
  | [] => Some []
  | VStr x :: l' => match l' with
                    | [] => Some x
                    | _ => option_map (fun t => x ++ sep ++ t) (join_strs sep l')
                    end
  | _ => None
  end.

Fixpoint insertZ (x : Z) (l : list Z) : list Z :=
  match l with [] => [x] | y :: l' => if x <=? y then x :: l else y :: insertZ x l' end.
Definition sortZ (l : list Z) : list Z := fold_right insertZ [] l.
Fixpoint ints_of (l : list value) : option (list Z) :=
  match l with
  | [] => Some []
  | VInt z :: l' => option_map (cons z) (ints_of l')
  | _ => None
  end.

Definition lower_py (c : ascii) : ascii :=
  let n := nat_of_ascii c in if ((65 <=? n) && (n <=? 90))%nat then ascii_of_nat (n + 32) else c.

Fixpoint dict_get (k : value) (d : list (value * value)) : option value :=
  match d with
  | [] => None
  | (k', v) :: d' => if veqb k k' then Some v else dict_get k d'
  end.
Fixpoint dict_set (k v : value) (d : list (value * value)) : list (value * value) :=
  match d with
  | [] => [(k, v)]
  | (k', w) :: d' => if veqb k k' then (k', v) :: d' else (k', w) :: dict_set k v d'
  end.

(* "%s" substitution; None = wrong number / kind of arguments *)
Fixpoint format_s (t : list ascii) (args : list value) : option (list ascii) :=
  match t with
  | [] => match args with [] => Some [] | _ => None end
  | c :: t' =>
      if Ascii.eqb c "%" then
        match t' with
        | d :: t'' => if Ascii.eqb d "s" then
                        match args with
                        | VStr a :: args' => option_map (app a) (format_s t'' args')
                        | _ => None
                        end
                      else None
        | [] => None
        end
      else option_map (cons c) (format_s t' args)
  end.

Definition is_bad (v : value) : bool := match v with VExc | VErr => true | _ => false end.
(* strict combination of two sub-results: VErr dominates VExc *)
Definition bad2 (a b : value) : option value :=
  match a, b with
  | VErr, _ | _, VErr => Some VErr
  | VExc, _ | _, VExc => Some VExc
  | _, _ => None
  end.

Definition truthy (v : value) : value :=
  match v with
  | VNone => VBool false
  | VBool b => VBool b
  | VInt z => VBool (negb (Z.eqb z 0))
  | VQ q => VBool (negb (Qeq_bool q 0))
  | VStr s => VBool (match s with [] => false | _ => true end)
  | VList l => VBool (match l with [] => false | _ => true end)
  | VDict d => VBool (match d with [] => false | _ => true end)
  | VOpaque => VOpaque
  | VExc => VExc
  | VErr => VErr
  end.

Fixpoint is_prefix (p s : list ascii) : bool :=
  match p, s with
  | [], _ => true
  | c :: p', d :: s' => Ascii.eqb c d && is_prefix p' s'
  | _ :: _, [] => false
  end.
(* Python's  p in s  for strings: substring test *)
Fixpoint is_substr (p s : list ascii) : bool :=
  is_prefix p s || match s with [] => false | _ :: s' => is_substr p s' end.

Definition is_ws_py (c : ascii) : bool :=
  let n := nat_of_ascii c in ((9 <=? n) && (n <=? 13) || (28 <=? n) && (n <=? 32))%nat.
Definition upper_py (c : ascii) : ascii :=
  let n := nat_of_ascii c in if ((97 <=? n) && (n <=? 122))%nat then ascii_of_nat (n - 32) else c.
Definition is_digit_py (c : ascii) : bool := let n := nat_of_ascii c in ((48 <=? n) && (n <=? 57))%nat.

Fixpoint count_substr1 (c : ascii) (s : list ascii) : Z :=
  match s with [] => 0 | d :: s' => (if Ascii.eqb c d then 1 else 0) + count_substr1 c s' end.

(* int("...") of an optionally signed decimal ASCII string; None = ValueError *)
Fixpoint digits_val (acc : Z) (s : list ascii) : option Z :=
  match s with
  | [] => Some acc
  | c :: s' => if is_digit_py c then digits_val (10 * acc + Z.of_nat (nat_of_ascii c - 48)) s' else None
  end.
Definition int_of_str (s : list ascii) : option Z :=
  match s with
  | [] => None
  | c :: s' =>
      if Ascii.eqb c "-" then match s' with [] => None | _ => option_map Z.opp (digits_val 0 s') end
      else digits_val 0 s
  end.

Fixpoint drop_ws (cs : list ascii) : list ascii :=
  match cs with [] => [] | c :: r => if is_ws_py c then drop_ws r else cs end.

(* Python slice bounds on a sequence of length n: None = open end; negative = from the end; clipped *)
Definition clip (n : nat) (i : Z) : nat :=
  let m := Z.of_nat n in
  let j := if i <? 0 then m + i else i in
  Z.to_nat (Z.max 0 (Z.min m j)).
Definition slice_bounds (n : nat) (lo hi : value) : option (nat * nat) :=
  match (match lo with VNone => Some 0%nat | VInt i => Some (clip n i) | _ => None end),
        (match hi with VNone => Some n | VInt i => Some (clip n i) | _ => None end) with
  | Some i, Some j => Some (i, j)
  | _, _ => None
  end.

Definition index_val {A} (l : list A) (i : Z) : option A :=
  let n := Z.of_nat (List.length l) in
  let j := if i <? 0 then n + i else i in
  if (j <? 0) || (n <=? j) then None else nth_error l (Z.to_nat j).

Definition as_Q (v : value) : option Q :=
  match v with VInt z => Some (inject_Z z) | VQ q => Some q | VBool b => Some (if b then 1 else 0)%Q | _ => None end.

Definition cmp_int (f : Z -> Z -> bool) (g : Q -> Q -> bool) (a b : value) : value :=
  match bad2 a b with
  | Some e => e
  | None => match a, b with
            | VInt x, VInt y => VBool (f x y)
            | VOpaque, _ | _, VOpaque => VOpaque
            | _, _ => match as_Q a, as_Q b with
                      | Some x, Some y => VBool (g x y)
                      | _, _ => VErr
                      end
            end
  end.

Definition Qltb (x y : Q) : bool := negb (Qle_bool y x).

Definition v_in (a b : value) : value :=
  match bad2 a b with
  | Some e => e
  | None => match a, b with
            | VStr p, VStr s => VBool (is_substr p s)
            | x, VList l => VBool (existsb (veqb x) l)
            | x, VDict d => VBool (match dict_get x d with Some _ => true | None => false end)
            | _, _ => VErr
            end
  end.

Definition v_not (a : value) : value :=
  match truthy a with VBool b => VBool (negb b) | other => other end.

(* what `for x in v` iterates over: the characters of a string, the items of a list, the keys of a dictionary *)
Definition elements (v : value) : option (list value) :=
  match v with
  | VStr s => Some (map (fun c => VStr [c]) s)
  | VList l => Some l
  | VDict d => Some (map fst d)
  | _ => None
  end.

Section Interp.
(* calls of other library functions are interpreted by [prim] (their own ties justify the table);
   every while-loop may iterate at most [wfuel] times (running out is OErr, excluded by the ties) *)
Variable prim : string -> list value -> value.
Variable wfuel : nat.

Fixpoint eval (e : expr) (r : env) {struct e} : value :=
  match e with
  | EConst v => v
  | EVar x => lookup x r
  | EEq a b => let x := eval a r in let y := eval b r in
               match bad2 x y with Some e => e | None => VBool (veqb x y) end
  | ENe a b => let x := eval a r in let y := eval b r in
               match bad2 x y with Some e => e | None => VBool (negb (veqb x y)) end
  | ELt a b => cmp_int Z.ltb Qltb (eval a r) (eval b r)
  | ELe a b => cmp_int Z.leb Qle_bool (eval a r) (eval b r)
  | EGt a b => cmp_int Z.gtb (fun x y => Qltb y x) (eval a r) (eval b r)
  | EGe a b => cmp_int Z.geb (fun x y => Qle_bool y x) (eval a r) (eval b r)
  | EIn a b => v_in (eval a r) (eval b r)
  | ENotIn a b => v_not (v_in (eval a r) (eval b r))
  | ENot a => v_not (eval a r)
  | EAnd a b => match truthy (eval a r) with
                | VBool false => VBool false
                | VBool true => truthy (eval b r)
                | other => other
                end
  | EOr a b => match truthy (eval a r) with
               | VBool true => VBool true
               | VBool false => truthy (eval b r)
               | other => other
               end
  | EAdd a b => let x := eval a r in let y := eval b r in
                match bad2 x y with
                | Some e => e
                | None => match x, y with
                          | VInt p, VInt q => VInt (p + q)
                          | VStr p, VStr q => VStr (p ++ q)
                          | VList p, VList q => VList (p ++ q)
                          | _, _ => match as_Q x, as_Q y with
                                    | Some p, Some q => VQ (Qred (p + q))
                                    | _, _ => VErr
                                    end
                          end
                end
  | ESub a b => let x := eval a r in let y := eval b r in
                match bad2 x y with
                | Some e => e
                | None => match x, y with
                          | VInt p, VInt q => VInt (p - q)
                          | _, _ => match as_Q x, as_Q y with
                                    | Some p, Some q => VQ (Qred (p - q))
                                    | _, _ => VErr
                                    end
                          end
                end
  | EMul a b => let x := eval a r in let y := eval b r in
                match bad2 x y with
                | Some e => e
                | None => match x, y with
                          | VInt p, VInt q => VInt (p * q)
                          | VList l, VInt q => VList (List.concat (repeat l (Z.to_nat q)))      (* [v] * n *)
                          | _, _ => match as_Q x, as_Q y with
                                    | Some p, Some q => VQ (Qred (p * q))
                                    | _, _ => VErr
                                    end
                          end
                end
  | EDiv a b => let x := eval a r in let y := eval b r in
                match bad2 x y with
                | Some e => e
                | None => match x, y with
                          | VInt _, VInt q => if Z.eqb q 0 then VExc else VOpaque
                          | _, _ => match as_Q x, as_Q y with
                                    | Some p, Some q => if Qeq_bool q 0 then VExc else VQ (Qred (p / q))
                                    | _, _ => VErr
                                    end
                          end
                end
  | ELen a => match eval a r with
              | VStr s => VInt (Z.of_nat (List.length s))
              | VList l => VInt (Z.of_nat (List.length l))
              | VDict d => VInt (Z.of_nat (List.length d))
              | VExc => VExc
              | _ => VErr
              end
  | EIndex a i => let x := eval a r in let y := eval i r in
                  match bad2 x y with
                  | Some e => e
                  | None => match x, y with
                            | VStr s, VInt k => match index_val s k with Some c => VStr [c] | None => VExc end
                            | VList l, VInt k => match index_val l k with Some v => v | None => VExc end
                            | VDict d, k => match dict_get k d with Some v => v | None => VExc end
                            | _, _ => VErr
                            end
                  end
  | ECount a b => let x := eval a r in let y := eval b r in
                  match bad2 x y with
                  | Some e => e
                  | None => match x, y with
                            | VStr s, VStr [c] => VInt (count_substr1 c s)
                            | _, _ => VErr
                            end
                  end
  | EIsSpace a => match eval a r with
                  | VStr s => VBool (match s with [] => false | _ => forallb is_ws_py s end)
                  | VExc => VExc
                  | _ => VErr
                  end
  | EUpper a => match eval a r with
                | VStr s => VStr (map upper_py s)
                | VErr => VErr
                | _ => VExc               (* AttributeError: 'int' object has no attribute 'upper' *)
                end
  | EIsInt a => match eval a r with
                | VInt _ => VBool true
                | VBool _ => VBool true        (* isinstance(True, int) *)
                | VExc => VExc
                | VErr => VErr
                | _ => VBool false
                end
  | EToInt a => match eval a r with
                | VInt z => VInt z
                | VBool b => VInt (if b then 1 else 0)
                | VStr s => match int_of_str s with Some z => VInt z | None => VExc end
                | VExc => VExc
                | _ => VErr
                end
  | EIsDict a => match eval a r with
                 | VDict _ => VBool true
                 | VExc => VExc
                 | VErr => VErr
                 | _ => VBool false
                 end
  | EComp x body src =>
      match eval src r with
      | VExc => VExc
      | v => match elements v with
             | None => VErr
             | Some xs =>
                 (fix go (xs : list value) : value :=
                    match xs with
                    | [] => VList []
                    | v :: xs' => let y := eval body (set x v r) in
                                  match go xs' with
                                  | VList t => if is_bad y then y else VList (y :: t)
                                  | other => if is_bad y then (match bad2 y other with Some e => e | None => other end) else other
                                  end
                    end) xs
             end
      end
  | ESetOf a => match eval a r with
                | VList l => VList (vdedup [] l)
                | VExc => VExc
                | _ => VErr
                end
  | EListOf a => match eval a r with
                 | VExc => VExc
                 | v => match elements v with Some xs => VList xs | None => VErr end
                 end
  | EIsStr a => match eval a r with
                | VStr _ => VBool true
                | VExc => VExc
                | VErr => VErr
                | _ => VBool false
                end
  | EJoin sep a => match eval a r with
                   | VList l => match join_strs sep l with Some t => VStr t | None => VErr end
                   | VStr s => match join_strs sep (map (fun c => VStr [c]) s) with Some t => VStr t | None => VErr end   (* sep.join(a string): its characters *)
                   | VExc => VExc
                   | _ => VErr
                   end
  | ELower a => match eval a r with
                | VStr s => VStr (map lower_py s)
                | VExc => VExc
                | _ => VErr
                end
  | EMod a b => let x := eval a r in let y := eval b r in
                match bad2 x y with
                | Some e => e
                | None => match x, y with
                          | VInt p, VInt q => if Z.eqb q 0 then VExc else VInt (p mod q)
                          | _, _ => VErr
                          end
                end
  | EFormat t args =>
      let vs := (fix go (l : list expr) : list value := match l with [] => [] | a :: l' => eval a r :: go l' end) args in
      if existsb (fun v => match v with VErr => true | _ => false end) vs then VErr
      else if existsb (fun v => match v with VExc => true | _ => false end) vs then VExc
      else match format_s t vs with Some s => VStr s | None => VErr end
  | EStrip a => match eval a r with
                | VStr s => VStr (rev (drop_ws (rev (drop_ws s))))
                | VExc => VExc
                | _ => VErr
                end
  | ESlice a lo hi =>
      match eval a r, eval lo r, eval hi r with
      | VErr, _, _ | _, VErr, _ | _, _, VErr => VErr
      | VExc, _, _ | _, VExc, _ | _, _, VExc => VExc
      | VStr s, l, h => match slice_bounds (List.length s) l h with
                        | Some (i, j) => VStr (firstn (j - i) (skipn i s))
                        | None => VErr
                        end
      | VList s, l, h => match slice_bounds (List.length s) l h with
                         | Some (i, j) => VList (firstn (j - i) (skipn i s))
                         | None => VErr
                         end
      | _, _, _ => VErr
      end
  | ECall f args =>
      let vs := (fix go (l : list expr) : list value := match l with [] => [] | a :: l' => eval a r :: go l' end) args in
      if existsb (fun v => match v with VErr => true | _ => false end) vs then VErr
      else if existsb (fun v => match v with VExc => true | _ => false end) vs then VExc
      else prim f vs
  | EListLit l =>
      (fix go (l : list expr) : value :=
         match l with
         | [] => VList []
         | a :: l' => let x := eval a r in
                      match go l' with
                      | VList t => if is_bad x then x else VList (x :: t)
                      | other => if is_bad x then (match bad2 x other with Some e => e | None => other end) else other
                      end
         end) l
  | ERange lo hi => let x := eval lo r in let y := eval hi r in
                    match bad2 x y with
                    | Some e => e
                    | None => match x, y with
                              | VInt a, VInt b => VList (map (fun k => VInt (a + Z.of_nat k)) (seq 0 (Z.to_nat (b - a))))
                              | _, _ => VErr
                              end
                    end
  | ESetDiff a b => let x := eval a r in let y := eval b r in
                    match bad2 x y with
                    | Some e => e
                    | None => match x, y with
                              | VList p, VList q => VList (filter (fun v => negb (existsb (veqb v) q)) p)
                              | _, _ => VErr
                              end
                    end
  | ESorted a => match eval a r with
                 | VList l => match ints_of l with Some zs => VList (map VInt (sortZ zs)) | None => VErr end
                 | VExc => VExc
                 | _ => VErr
                 end
  | EEnumFilter ix x cond body src =>
      match eval src r with
      | VExc => VExc
      | v => match elements v with
             | None => VErr
             | Some xs =>
                 (fix go (k : Z) (xs : list value) : value :=
                    match xs with
                    | [] => VList []
                    | v :: xs' =>
                        let r' := set x v (set ix (VInt k) r) in
                        match truthy (eval cond r') with
                        | VBool true => let y := eval body r' in
                                        if is_bad y then y
                                        else match go (k + 1) xs' with VList t => VList (y :: t) | other => other end
                        | VBool false => go (k + 1) xs'
                        | VExc => VExc
                        | _ => VErr
                        end
                    end) 0 xs
             end
      end
  end.

Inductive outcome :=
| ONorm (r : env)
| OCont (r : env)
| OBreak (r : env)
| ORet (v : value)
| ORaise
| OErr.

Fixpoint exec (s : stmt) (r : env) {struct s} : outcome :=
  match s with
  | SSkip => ONorm r
  | SSeq a b => match exec a r with ONorm r' => exec b r' | other => other end
  | SAssign x e => match eval e r with
                   | VExc => ORaise
                   | VErr => OErr
                   | v => ONorm (set x v r)
                   end
  | SAppend x e => match lookup x r, eval e r with
                   | _, VErr => OErr
                   | _, VExc => ORaise
                   | VList l, v => ONorm (set x (VList (l ++ [v])) r)
                   | _, _ => OErr
                   end
  | SSetItem x k e => match lookup x r, eval k r, eval e r with
                      | _, VErr, _ | _, _, VErr => OErr
                      | _, VExc, _ | _, _, VExc => ORaise
                      | VDict d, kv, v => ONorm (set x (VDict (dict_set kv v d)) r)
                      | VList l, VInt i, v => match list_set l i v with Some l' => ONorm (set x (VList l') r) | None => ORaise end
                      | _, _, _ => OErr
                      end
  | SIf c a b => match truthy (eval c r) with
                 | VBool true => exec a r
                 | VBool false => exec b r
                 | VExc => ORaise
                 | VOpaque => match a, b with SSkip, SSkip => ONorm r | _, _ => OErr end
                 | _ => OErr
                 end
  | SFor x e body =>
      match eval e r with
      | VExc => ORaise
      | v => match elements v with
             | None => OErr
             | Some xs =>
                 (fix loop (xs : list value) (r : env) : outcome :=
                    match xs with
                    | [] => ONorm r
                    | v :: xs' => match exec body (set x v r) with
                                  | ONorm r' | OCont r' => loop xs' r'
                                  | OBreak r' => ONorm r'
                                  | other => other
                                  end
                    end) xs r
             end
      end
  | SWhile c body =>
      (fix loop (k : nat) (r : env) : outcome :=
         match k with
         | O => OErr
         | S k' => match truthy (eval c r) with
                   | VBool false => ONorm r
                   | VBool true => match exec body r with
                                   | ONorm r' | OCont r' => loop k' r'
                                   | OBreak r' => ONorm r'
                                   | other => other
                                   end
                   | VExc => ORaise
                   | _ => OErr
                   end
         end) wfuel r
  | SRaise => ORaise
  | SReturn e => match eval e r with VExc => ORaise | VErr => OErr | v => ORet v end
  | SContinue => OCont r
  | SBreak => OBreak r
  end.

(* the loop of SFor, as a function of the element list *)
Fixpoint run_loop (x : string) (body : stmt) (xs : list value) (r : env) : outcome :=
  match xs with
  | [] => ONorm r
  | v :: xs' => match exec body (set x v r) with
                | ONorm r' | OCont r' => run_loop x body xs' r'
                | OBreak r' => ONorm r'
                | other => other
                end
  end.

Lemma exec_for x e body r : exec (SFor x e body) r =
  match eval e r with
  | VExc => ORaise
  | v => match elements v with None => OErr | Some xs => run_loop x body xs r end
  end.
Proof.
  cbn [exec]. destruct (eval e r); try reflexivity;
  match goal with |- match elements ?v with _ => _ end = _ => destruct (elements v) as [xs|]; [|reflexivity] end;
  revert r; induction xs as [|v xs IH]; intros r; cbn [run_loop]; try reflexivity;
  destruct (exec body (set x v r)); try reflexivity; apply IH.
Qed.

(* One equation of the big-step eval per constructor and operand shape (cbn on an expression with abstract operands
   expands every error branch; these lemmas rewrite with the operands' values instead).  Core.MiniPyExec has more. *)
Lemma eval_var x r : eval (EVar x) r = lookup x r. Proof. reflexivity. Qed.
Lemma eval_const v r : eval (EConst v) r = v. Proof. reflexivity. Qed.
Lemma eval_eq_int a b r x y : eval a r = VInt x -> eval b r = VInt y -> eval (EEq a b) r = VBool (x =? y).
Proof. intros Ha Hb. cbn [eval]. rewrite Ha, Hb. reflexivity. Qed.
Lemma eval_lt_Q a b r p q : eval a r = VQ p -> eval b r = VQ q -> eval (ELt a b) r = VBool (Qltb p q).
Proof. intros Ha Hb. cbn [eval]. rewrite Ha, Hb. reflexivity. Qed.
Lemma eval_add_int a b r x y : eval a r = VInt x -> eval b r = VInt y -> eval (EAdd a b) r = VInt (x + y).
Proof. intros Ha Hb. cbn [eval]. rewrite Ha, Hb. reflexivity. Qed.
Lemma eval_sub_int a b r x y : eval a r = VInt x -> eval b r = VInt y -> eval (ESub a b) r = VInt (x - y).
Proof. intros Ha Hb. cbn [eval]. rewrite Ha, Hb. reflexivity. Qed.
Lemma eval_mul_int a b r x y : eval a r = VInt x -> eval b r = VInt y -> eval (EMul a b) r = VInt (x * y).
Proof. intros Ha Hb. cbn [eval]. rewrite Ha, Hb. reflexivity. Qed.
Lemma eval_add_Q a b r p q : eval a r = VQ p -> eval b r = VQ q -> eval (EAdd a b) r = VQ (Qred (p + q)).
Proof. intros Ha Hb. cbn [eval]. rewrite Ha, Hb. reflexivity. Qed.
Lemma eval_sub_Q a b r p q : eval a r = VQ p -> eval b r = VQ q -> eval (ESub a b) r = VQ (Qred (p - q)).
Proof. intros Ha Hb. cbn [eval]. rewrite Ha, Hb. reflexivity. Qed.
Lemma eval_mul_Q a b r p q : eval a r = VQ p -> eval b r = VQ q -> eval (EMul a b) r = VQ (Qred (p * q)).
Proof. intros Ha Hb. cbn [eval]. rewrite Ha, Hb. reflexivity. Qed.
Lemma eval_add_Q_int a b r p z : eval a r = VQ p -> eval b r = VInt z -> eval (EAdd a b) r = VQ (Qred (p + inject_Z z)).
Proof. intros Ha Hb. cbn [eval]. rewrite Ha, Hb. reflexivity. Qed.
Lemma eval_add_Q_int_l a b r z q : eval a r = VInt z -> eval b r = VQ q -> eval (EAdd a b) r = VQ (Qred (inject_Z z + q)).
Proof. intros Ha Hb. cbn [eval]. rewrite Ha, Hb. reflexivity. Qed.
Lemma eval_mul_int_Q a b r z q : eval a r = VInt z -> eval b r = VQ q -> eval (EMul a b) r = VQ (Qred (inject_Z z * q)).
Proof. intros Ha Hb. cbn [eval]. rewrite Ha, Hb. reflexivity. Qed.
Lemma eval_toint_int a r z : eval a r = VInt z -> eval (EToInt a) r = VInt z.
Proof. intros H. cbn [eval]. now rewrite H. Qed.
Lemma eval_add_list a b r x y : eval a r = VList x -> eval b r = VList y -> eval (EAdd a b) r = VList (x ++ y).
Proof. intros Ha Hb. cbn [eval]. rewrite Ha, Hb. reflexivity. Qed.
Lemma eval_mul_rep a b r l n : eval a r = VList l -> eval b r = VInt n -> eval (EMul a b) r = VList (List.concat (repeat l (Z.to_nat n))).
Proof. intros Ha Hb. cbn [eval]. rewrite Ha, Hb. reflexivity. Qed.
Lemma eval_range a b r x y : eval a r = VInt x -> eval b r = VInt y ->
  eval (ERange a b) r = VList (map (fun k => VInt (x + Z.of_nat k)) (seq 0 (Z.to_nat (y - x)))).
Proof. intros Ha Hb. cbn [eval]. rewrite Ha, Hb. reflexivity. Qed.
Lemma eval_index_list a i r l k v : eval a r = VList l -> eval i r = VInt k -> index_val l k = Some v -> eval (EIndex a i) r = v.
Proof. intros Ha Hi Hv. cbn [eval]. rewrite Ha, Hi. cbn [bad2]. now rewrite Hv. Qed.
Lemma eval_index_dict a i r d k v : eval a r = VDict d -> eval i r = k -> is_bad k = false -> dict_get k d = Some v -> eval (EIndex a i) r = v.
Proof. intros Ha <- Hk Hv. cbn [eval]. rewrite Ha. destruct (eval i r); try discriminate Hk; cbn [bad2]; now rewrite Hv. Qed.
Lemma eval_slice_list a lo hi r l i j : eval a r = VList l -> eval lo r = VInt i -> eval hi r = VInt j ->
  eval (ESlice a lo hi) r = match slice_bounds (List.length l) (VInt i) (VInt j) with
                            | Some (i', j') => VList (firstn (j' - i') (skipn i' l))
                            | None => VErr
                            end.
Proof. intros Ha Hl Hh. cbn [eval]. rewrite Ha, Hl, Hh. reflexivity. Qed.
Lemma eval_slice_str a lo hi r s i j : eval a r = VStr s -> eval lo r = VInt i -> eval hi r = VInt j ->
  eval (ESlice a lo hi) r = match slice_bounds (List.length s) (VInt i) (VInt j) with
                            | Some (i', j') => VStr (firstn (j' - i') (skipn i' s))
                            | None => VErr
                            end.
Proof. intros Ha Hl Hh. cbn [eval]. rewrite Ha, Hl, Hh. reflexivity. Qed.
Lemma eval_listlit_all r es : forall vs, Forall2 (fun e v => eval e r = v /\ is_bad v = false) es vs -> eval (EListLit es) r = VList vs.
Proof.
  induction es as [|e es IH]; intros vs H; inversion H as [|? v ? vs' [He Hv] Hr]; subst; [reflexivity|].
  change (eval (EListLit (e :: es)) r) with
    (let x := eval e r in match eval (EListLit es) r with
       | VList t => if is_bad x then x else VList (x :: t)
       | other => if is_bad x then (match bad2 x other with Some e0 => e0 | None => other end) else other end).
  cbv zeta. rewrite (IH vs' Hr), Hv. reflexivity.
Qed.
Lemma eval_listlit1 a r v : eval a r = v -> is_bad v = false -> eval (EListLit [a]) r = VList [v].
Proof. intros <- H. cbn [eval]. destruct (eval a r); try discriminate H; reflexivity. Qed.
Lemma eval_listlit2 a b r v w : eval a r = v -> eval b r = w -> is_bad v = false -> is_bad w = false -> eval (EListLit [a; b]) r = VList [v; w].
Proof. intros <- <- H1 H2. cbn [eval]. destruct (eval a r); try discriminate H1; destruct (eval b r); try discriminate H2; reflexivity. Qed.
Lemma eval_call0 f r : eval (ECall f []) r = prim f []. Proof. reflexivity. Qed.
Lemma eval_call1 f a r v : eval a r = v -> is_bad v = false -> eval (ECall f [a]) r = prim f [v].
Proof. intros <- H. cbn [eval]. destruct (eval a r); try discriminate H; reflexivity. Qed.
Lemma eval_call2 f a b r v w : eval a r = v -> eval b r = w -> is_bad v = false -> is_bad w = false -> eval (ECall f [a; b]) r = prim f [v; w].
Proof. intros <- <- H1 H2. cbn [eval]. destruct (eval a r); try discriminate H1; destruct (eval b r); try discriminate H2; reflexivity. Qed.
Lemma eval_call3 f a b c r v w u : eval a r = v -> eval b r = w -> eval c r = u -> is_bad v = false -> is_bad w = false -> is_bad u = false ->
  eval (ECall f [a; b; c]) r = prim f [v; w; u].
Proof.
  intros <- <- <- H1 H2 H3. cbn [eval]. destruct (eval a r); try discriminate H1; destruct (eval b r); try discriminate H2;
  destruct (eval c r); try discriminate H3; reflexivity.
Qed.

Fixpoint exec_list (l : list stmt) (r : env) : outcome :=
  match l with
  | [] => ONorm r
  | s :: l' => match exec s r with ONorm r' => exec_list l' r' | other => other end
  end.

(* the spine  s1; (s2; (...; (for x in e: body; rest)))  *)
Fixpoint split_at_for (s : stmt) : option (list stmt * (string * expr * stmt) * stmt) :=
  match s with
  | SFor x e body => Some ([], (x, e, body), SSkip)
  | SSeq (SFor x e body) rest => Some ([], (x, e, body), rest)
  | SSeq a b => match split_at_for b with
                | Some (pre, l, rest) => Some (a :: pre, l, rest)
                | None => None
                end
  | _ => None
  end.

Lemma exec_seq a b r : exec (SSeq a b) r = match exec a r with ONorm r' => exec b r' | other => other end.
Proof. reflexivity. Qed.

Lemma exec_if c a b r : exec (SIf c a b) r =
  match truthy (eval c r) with
  | VBool true => exec a r
  | VBool false => exec b r
  | VExc => ORaise
  | VOpaque => match a, b with SSkip, SSkip => ONorm r | _, _ => OErr end
  | _ => OErr
  end.
Proof. reflexivity. Qed.

Lemma exec_split s : forall pre x e body rest r, split_at_for s = Some (pre, (x, e, body), rest) ->
  exec s r = match exec_list pre r with
             | ONorm r1 => match exec (SFor x e body) r1 with ONorm r2 => exec rest r2 | other => other end
             | other => other
             end.
Proof.
  induction s as [| a IHa b IHb | y ey | y ey | y ky ey | c a IHa b IHb | y ey bd IHbd | c bd IHbd | | ey | |];
    intros pre x e body rest r H; cbn [split_at_for] in H; try discriminate H.
  - assert (Hgen : forall pre' l' rest', split_at_for b = Some (pre', l', rest') -> pre = a :: pre' -> (x, e, body) = l' -> rest = rest' ->
                   exec (SSeq a b) r = match exec_list pre r with
                     | ONorm r1 => match exec (SFor x e body) r1 with ONorm r2 => exec rest r2 | other => other end
                     | other => other end).
    { intros pre' l' rest' E -> <- ->. rewrite exec_seq. cbn [exec_list]. destruct (exec a r); try reflexivity.
      apply IHb. exact E. }
    destruct a; cbn [split_at_for] in H.
    { destruct (split_at_for b) as [[[pre' l'] rest']|] eqn:E; [|discriminate H].
      injection H as Hp Hl Hr. subst pre l' rest. eapply Hgen; reflexivity. }
    all: try (destruct (split_at_for b) as [[[pre' l'] rest']|] eqn:E; [|discriminate H];
           injection H as Hp Hl Hr; subst pre l' rest; eapply Hgen; reflexivity).
    injection H as <- <- <- <- <-. rewrite exec_seq. cbn [exec_list]. reflexivity.
  - injection H as <- <- <- <- <-. cbn [exec_list]. destruct (exec (SFor y ey bd) r); reflexivity.
Qed.

(* Loops that may raise: a relation between environments and abstract states that every iteration preserves (or leaves
   through raise), lifted to the whole loop.  A loop that cannot raise goes through MiniPyExec.run_loop_fold. *)
Section LoopRule.
  Context {S : Type}.
  Variable x : string.
  Variable body : stmt.
  Variable Rel : env -> S -> Prop.
  Variable step : S -> value -> option S.          (* None = the iteration raises *)
  Variable Pv : value -> Prop.                     (* what the elements look like (e.g. one-character strings) *)
  Hypothesis body_step : forall r st v, Pv v -> Rel r st ->
    match step st v with
    | Some st' => exists r', (exec body (set x v r) = ONorm r' \/ exec body (set x v r) = OCont r') /\ Rel r' st'
    | None => exec body (set x v r) = ORaise
    end.

  Fixpoint fold_step (st : S) (xs : list value) : option S :=
    match xs with
    | [] => Some st
    | v :: xs' => match step st v with Some st' => fold_step st' xs' | None => None end
    end.

  Lemma run_loop_rule xs : Forall Pv xs -> forall r st, Rel r st ->
    match fold_step st xs with
    | Some st' => exists r', run_loop x body xs r = ONorm r' /\ Rel r' st'
    | None => run_loop x body xs r = ORaise
    end.
  Proof.
    induction xs as [|v xs IH]; intros HP r st HR; cbn [fold_step run_loop].
    - exists r. split; [reflexivity | exact HR].
    - inversion HP as [|? ? Hv Hxs]; subst.
      pose proof (body_step r st v Hv HR) as Hb. destruct (step st v) as [st'|].
      + destruct Hb as [r' [[E|E] HR']]; rewrite E; apply IH; assumption.
      + rewrite Hb. reflexivity.
  Qed.
End LoopRule.

(* the list a comprehension builds, as a function of the element list *)
Fixpoint comp_list (x : string) (body : expr) (xs : list value) (r : env) : value :=
  match xs with
  | [] => VList []
  | v :: xs' => let y := eval body (set x v r) in
                match comp_list x body xs' r with
                | VList t => if is_bad y then y else VList (y :: t)
                | other => if is_bad y then (match bad2 y other with Some e => e | None => other end) else other
                end
  end.

Lemma eval_comp x body src r : eval (EComp x body src) r =
  match eval src r with
  | VExc => VExc
  | v => match elements v with None => VErr | Some xs => comp_list x body xs r end
  end.
Proof.
  cbn [eval]. destruct (eval src r); try reflexivity;
  match goal with |- match elements ?v with _ => _ end = _ => destruct (elements v) as [xs|]; [|reflexivity] end;
  induction xs as [|v xs IH]; cbn [comp_list]; try reflexivity; rewrite IH; reflexivity.
Qed.

(* the list [body for ix, x in enumerate(xs) if cond] builds, as a function of the element list and the first index *)
Fixpoint enum_list (ix x : string) (cond body : expr) (k : Z) (xs : list value) (r : env) : value :=
  match xs with
  | [] => VList []
  | v :: xs' =>
      let r' := set x v (set ix (VInt k) r) in
      match truthy (eval cond r') with
      | VBool true => let y := eval body r' in
                      if is_bad y then y
                      else match enum_list ix x cond body (k + 1) xs' r with VList t => VList (y :: t) | other => other end
      | VBool false => enum_list ix x cond body (k + 1) xs' r
      | VExc => VExc
      | _ => VErr
      end
  end.

Lemma eval_enumfilter ix x cond body src r : eval (EEnumFilter ix x cond body src) r =
  match eval src r with
  | VExc => VExc
  | v => match elements v with None => VErr | Some xs => enum_list ix x cond body 0 xs r end
  end.
Proof.
  cbn [eval]. destruct (eval src r); try reflexivity;
  match goal with |- match elements ?v with _ => _ end = _ => destruct (elements v) as [xs|]; [|reflexivity] end;
  generalize 0; induction xs as [|v xs IH]; intros k; cbn [enum_list]; try reflexivity; rewrite IH; reflexivity.
Qed.

(* a right-nested sequence is the list of its statements *)
Fixpoint spine (s : stmt) : list stmt :=
  match s with SSeq a b => a :: spine b | _ => [s] end.

Lemma exec_spine s : forall r, exec s r = exec_list (spine s) r.
Proof.
  induction s as [| a IHa b IHb | | | | | | | | | |]; intros r; cbn [spine exec_list];
    try (destruct (exec _ r); reflexivity).
  rewrite exec_seq. destruct (exec a r); try reflexivity. apply IHb.
Qed.

(* One statement at a time over an ABSTRACT environment (used where the environment has many variables: the facts
   needed are lookups, and everything not assigned keeps its value) *)
Lemma exec_assign_ok x e r v : eval e r = v -> is_bad v = false -> exec (SAssign x e) r = ONorm (set x v r).
Proof. intros <- H. cbn [exec]. destruct (eval e r); try discriminate H; reflexivity. Qed.

Lemma exec_setitem_list x k e r l i v l' : lookup x r = VList l -> eval k r = VInt i -> eval e r = v -> is_bad v = false ->
  list_set l i v = Some l' -> exec (SSetItem x k e) r = ONorm (set x (VList l') r).
Proof. intros Hx Hk <- Hv Hl. cbn [exec]. rewrite Hx, Hk. destruct (eval e r); try discriminate Hv; rewrite Hl; reflexivity. Qed.

Lemma exec_append_ok x e r l v : lookup x r = VList l -> eval e r = v -> is_bad v = false -> exec (SAppend x e) r = ONorm (set x (VList (l ++ [v])) r).
Proof. intros Hx <- H. cbn [exec]. rewrite Hx. destruct (eval e r); try discriminate H; reflexivity. Qed.

Lemma exec_setitem_dict x k e r d kv v : lookup x r = VDict d -> eval k r = kv -> eval e r = v -> is_bad kv = false -> is_bad v = false ->
  exec (SSetItem x k e) r = ONorm (set x (VDict (dict_set kv v d)) r).
Proof. intros Hx <- <- Hk Hv. cbn [exec]. rewrite Hx. destruct (eval k r); try discriminate Hk; destruct (eval e r); try discriminate Hv; reflexivity. Qed.

Lemma exec_if_true c a b r : truthy (eval c r) = VBool true -> exec (SIf c a b) r = exec a r.
Proof. intros H. rewrite exec_if, H. reflexivity. Qed.
Lemma exec_if_false c a b r : truthy (eval c r) = VBool false -> exec (SIf c a b) r = exec b r.
Proof. intros H. rewrite exec_if, H. reflexivity. Qed.

Lemma exec_return_ok e r v : eval e r = v -> is_bad v = false -> exec (SReturn e) r = ORet v.
Proof. intros <- H. cbn [exec]. destruct (eval e r); try discriminate H; reflexivity. Qed.

Lemma exec_list_cons st l r : exec_list (st :: l) r = match exec st r with ONorm r' => exec_list l r' | other => other end.
Proof. reflexivity. Qed.
Lemma exec_list_app l1 : forall l2 r, exec_list (l1 ++ l2) r = match exec_list l1 r with ONorm r' => exec_list l2 r' | other => other end.
Proof. induction l1 as [|x l1 IH]; intros l2 r; [reflexivity|]. cbn [app exec_list]. destruct (exec x r); try reflexivity. apply IH. Qed.

(* the loop of SWhile, as a function of the remaining fuel *)
Fixpoint run_while (c : expr) (body : stmt) (k : nat) (r : env) : outcome :=
  match k with
  | O => OErr
  | S k' => match truthy (eval c r) with
            | VBool false => ONorm r
            | VBool true => match exec body r with
                            | ONorm r' | OCont r' => run_while c body k' r'
                            | OBreak r' => ONorm r'
                            | other => other
                            end
            | VExc => ORaise
            | _ => OErr
            end
  end.

Lemma exec_while c body r : exec (SWhile c body) r = run_while c body wfuel r.
Proof.
  cbn [exec]. generalize wfuel. intros k. revert r. induction k as [|k IH]; intros r; cbn [run_while]; [reflexivity|].
  destruct (truthy (eval c r)); try reflexivity. destruct b; [|reflexivity].
  destruct (exec body r); try reflexivity; apply IH.
Qed.
End Interp.

Arguments eval_add_Q {prim}.
Arguments eval_add_Q_int {prim}.
Arguments eval_add_Q_int_l {prim}.
Arguments eval_add_int {prim}.
Arguments eval_add_list {prim}.
Arguments eval_call0 {prim}.
Arguments eval_call1 {prim}.
Arguments eval_call2 {prim}.
Arguments eval_call3 {prim}.
Arguments eval_comp {prim}.
Arguments eval_const {prim}.
Arguments eval_enumfilter {prim}.
Arguments eval_eq_int {prim}.
Arguments eval_index_dict {prim}.
Arguments eval_index_list {prim}.
Arguments eval_listlit1 {prim}.
Arguments eval_listlit2 {prim}.
Arguments eval_listlit_all {prim}.
Arguments eval_lt_Q {prim}.
Arguments eval_mul_Q {prim}.
Arguments eval_mul_int {prim}.
Arguments eval_mul_int_Q {prim}.
Arguments eval_mul_rep {prim}.
Arguments eval_range {prim}.
Arguments eval_slice_list {prim}.
Arguments eval_slice_str {prim}.
Arguments eval_sub_Q {prim}.
Arguments eval_sub_int {prim}.
Arguments eval_toint_int {prim}.
Arguments eval_var {prim}.
Arguments exec_append_ok {prim wfuel}.
Arguments exec_assign_ok {prim wfuel}.
Arguments exec_for {prim wfuel}.
Arguments exec_if {prim wfuel}.
Arguments exec_if_false {prim wfuel}.
Arguments exec_if_true {prim wfuel}.
Arguments exec_list_app {prim wfuel}.
Arguments exec_list_cons {prim wfuel}.
Arguments exec_return_ok {prim wfuel}.
Arguments exec_seq {prim wfuel}.
Arguments exec_setitem_dict {prim wfuel}.
Arguments exec_setitem_list {prim wfuel}.
Arguments exec_spine {prim wfuel}.
Arguments exec_split {prim wfuel}.
Arguments exec_while {prim wfuel}.
Arguments run_loop_rule {prim wfuel S}.
Definition noprim : string -> list value -> value := fun _ _ => VErr.
