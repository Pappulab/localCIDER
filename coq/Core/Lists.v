(* Core/Lists.v — general list facts, sliding windows, counting with a boolean predicate, elementwise equality tests. *)
From Coq Require Import List Bool Lia Permutation ZArith.
Import ListNotations.

Lemma nth_map {A B} (f : A -> B) l i d d' : i < length l -> nth i (map f l) d = f (nth i l d').
Proof. intros H. rewrite (nth_indep _ d (f d')) by (now rewrite map_length). apply map_nth. Qed.

Lemma nth_map_seq {B} (f : nat -> B) a n i d : i < n -> nth i (map f (seq a n)) d = f (a + i).
Proof. intros H. rewrite (nth_map f _ _ d 0) by (now rewrite seq_length). now rewrite seq_nth. Qed.

Lemma nth_error_ext {A} (a b : list A) : (forall i, nth_error a i = nth_error b i) -> a = b.
Proof.
  revert b. induction a as [|x a IH]; intros [|y b] H; try reflexivity; try discriminate (H 0%nat).
  injection (H 0%nat) as ->. f_equal. apply IH. intros i. exact (H (S i)).
Qed.

Lemma existsb_eqb_In {A} (eqb : A -> A -> bool) : (forall x y, eqb x y = true <-> x = y) ->
  forall x l, existsb (eqb x) l = true <-> In x l.
Proof.
  intros Heqb x l. rewrite existsb_exists. split.
  - intros [y [Hy E]]. apply Heqb in E. now subst.
  - intros H. exists x. split; [exact H | now apply Heqb].
Qed.

(* any d that drops an element exactly when it occurs again later keeps the members and leaves no repetition *)
Lemma dedup_spec {A} (eqb : A -> A -> bool) (d : list A -> list A) : (forall x y, eqb x y = true <-> x = y) ->
  d [] = [] -> (forall x l, d (x :: l) = if existsb (eqb x) l then d l else x :: d l) ->
  forall l, NoDup (d l) /\ forall x, In x (d l) <-> In x l.
Proof.
  intros Heqb H0 HS. induction l as [|a l [IHn IHi]]; [rewrite H0; split; [constructor | tauto]|].
  rewrite HS. destruct (existsb (eqb a) l) eqn:Hm.
  - apply (existsb_eqb_In eqb Heqb) in Hm. split; [exact IHn|]. intros x. rewrite IHi. split; [now right|].
    intros [<-|H]; assumption.
  - split; [constructor; [|exact IHn] | intros x; cbn [In]; now rewrite IHi].
    rewrite IHi, <- (existsb_eqb_In eqb Heqb), Hm. discriminate.
Qed.

Lemma NoDup_snoc {A} (l : list A) x : NoDup l -> ~ In x l -> NoDup (l ++ [x]).
Proof. intros H Hx. apply (Permutation_NoDup (Permutation_cons_append l x)). now constructor. Qed.

Lemma select_perm n S : NoDup S -> (forall x, In x S -> x < n) ->
  Permutation (filter (fun p => existsb (Nat.eqb p) S) (seq 0 n)) S.
Proof.
  intros Hnd Hr. apply NoDup_Permutation; [apply NoDup_filter, seq_NoDup | exact Hnd|].
  intros x. rewrite filter_In, in_seq, (existsb_eqb_In Nat.eqb Nat.eqb_eq). split; [tauto|]. intros H. split; [pose proof (Hr x H); lia | exact H].
Qed.

Lemma forallb_rev {A} (P : A -> bool) l : forallb P l = true -> forallb P (rev l) = true.
Proof. rewrite !forallb_forall. intros H x Hx. apply H, in_rev, Hx. Qed.

Lemma filter_len_le {A} (P : A -> bool) l : length (filter P l) <= length l.
Proof. induction l as [|x l IH]; [apply le_n|]. cbn [filter]. destruct (P x); cbn [length]; lia. Qed.

Lemma filter_all {A} (P : A -> bool) l : length (filter P l) = length l -> filter P l = l.
Proof.
  induction l as [|x l IH]; intros H; [reflexivity|]. cbn [filter] in *. destruct (P x).
  - cbn [length] in H. f_equal. apply IH. lia.
  - exfalso. pose proof (filter_len_le P l). cbn [length] in H. lia.
Qed.

Section Blobs.
Context {A : Type}.

(* the w-wide window starting at 0-based index i *)
Definition blob (w i : nat) (l : list A) : list A := firstn w (skipn i l).
(* all len-w+1 full windows, in order; [] if w > len *)
Definition blobs (w : nat) (l : list A) : list (list A) :=
  map (fun i => blob w i l) (seq 0 (length l + 1 - w)).

Lemma blobs_length w l : length (blobs w l) = length l + 1 - w.
Proof. unfold blobs. now rewrite map_length, seq_length. Qed.

Lemma blobs_too_long w l : length l < w -> blobs w l = [].
Proof. intros H. unfold blobs. replace (length l + 1 - w) with 0 by lia. reflexivity. Qed.

Lemma blobs_whole l : blobs (length l) l = [l].
Proof.
  unfold blobs, blob. replace (length l + 1 - length l) with 1 by lia. cbn [seq map skipn].
  now rewrite firstn_all.
Qed.

Lemma blob_length w i l : i + w <= length l -> length (blob w i l) = w.
Proof. intros H. unfold blob. rewrite firstn_length, skipn_length. lia. Qed.

Lemma blob_incl w i l : incl (blob w i l) l.
Proof.
  intros x Hx. unfold blob in Hx.
  rewrite <- (firstn_skipn i l), <- (firstn_skipn w (skipn i l)), !in_app_iff. auto.
Qed.

Lemma blobs_In b w l : In b (blobs w l) -> exists i, i + w <= length l /\ b = blob w i l.
Proof.
  unfold blobs. rewrite in_map_iff. intros [i [Hb Hi]]. apply in_seq in Hi.
  exists i. split; [lia | now symmetry].
Qed.

Lemma blobs_nth w l i d : i < length l + 1 - w -> nth i (blobs w l) d = blob w i l.
Proof. apply (nth_map_seq (fun i => blob w i l)). Qed.

Lemma firstn_skipn_rev (l : list A) (w i : nat) :
  i + w <= length l ->
  firstn w (skipn i (rev l)) = rev (firstn w (skipn (length l - w - i) l)).
Proof.
  intros H. rewrite skipn_rev, firstn_rev, firstn_length, Nat.min_l by lia.
  rewrite firstn_skipn_comm. do 2 f_equal; [|f_equal]; lia.
Qed.

Lemma blobs_rev (w : nat) (l : list A) : 0 < w ->
  blobs w (rev l) = rev (map (@rev A) (blobs w l)).
Proof.
  intros Hw.
  assert (Hlen : length (blobs w (rev l)) = length (rev (map (@rev A) (blobs w l))))
    by now rewrite rev_length, map_length, !blobs_length, rev_length.
  apply nth_ext with (d := []) (d' := rev []); [exact Hlen|].
  rewrite blobs_length, rev_length. intros k Hk.
  rewrite blobs_nth, rev_nth, map_nth, map_length, blobs_length, blobs_nth
    by (rewrite ?rev_length, ?map_length, ?blobs_length; lia).
  unfold blob. rewrite firstn_skipn_rev by lia. do 3 f_equal. lia.
Qed.
End Blobs.

Lemma blob_map {A B} (f : A -> B) w i l : blob w i (map f l) = map f (blob w i l).
Proof. unfold blob. now rewrite skipn_map, firstn_map. Qed.

Lemma blobs_map {A B} (f : A -> B) w l : blobs w (map f l) = map (map f) (blobs w l).
Proof.
  unfold blobs. rewrite map_length, map_map. apply map_ext. intros i. apply blob_map.
Qed.

Local Open Scope Z_scope.
Fixpoint cnt {A} (f : A -> bool) (l : list A) : Z :=
  match l with [] => 0 | x :: l' => (if f x then 1 else 0) + cnt f l' end.

Lemma cnt_app {A} (f : A -> bool) a b : cnt f (a ++ b) = cnt f a + cnt f b.
Proof. induction a as [|x a IH]; simpl; [reflexivity | rewrite IH; lia]. Qed.

Lemma cnt_rev {A} (f : A -> bool) a : cnt f (rev a) = cnt f a.
Proof. induction a as [|x a IH]; simpl; [reflexivity | rewrite cnt_app, IH; simpl; lia]. Qed.

Lemma cnt_nonneg {A} (f : A -> bool) a : 0 <= cnt f a.
Proof. induction a as [|x a IH]; simpl; [lia | destruct (f x); lia]. Qed.

Lemma cnt_le_length {A} (f : A -> bool) a : cnt f a <= Z.of_nat (length a).
Proof. induction a as [|x a IH]; [simpl; lia|]. cbn [cnt length]. destruct (f x); lia. Qed.

Lemma cnt_map {A B} (g : A -> B) (f : B -> bool) a : cnt f (map g a) = cnt (fun x => f (g x)) a.
Proof. induction a as [|x a IH]; simpl; [reflexivity | now rewrite IH]. Qed.

Lemma cnt_ext {A} (f g : A -> bool) a : (forall x, f x = g x) -> cnt f a = cnt g a.
Proof. intros H. induction a as [|x a IH]; simpl; [reflexivity | now rewrite H, IH]. Qed.

Lemma cnt_perm {A} (f : A -> bool) a b : Permutation a b -> cnt f a = cnt f b.
Proof. induction 1; simpl; lia. Qed.

Lemma cnt_repeat {A} (f : A -> bool) x k : cnt f (repeat x k) = if f x then Z.of_nat k else 0.
Proof. induction k as [|k IH]; [simpl; now destruct (f x)|]. cbn [repeat cnt]. rewrite IH. destruct (f x); lia. Qed.

Lemma cnt_filter {A} (f : A -> bool) l : cnt f l = Z.of_nat (length (filter f l)).
Proof. induction l as [|x l IH]; [reflexivity|]. cbn [cnt filter]. destruct (f x); cbn [length]; lia. Qed.

Lemma cnt_blob_le {A} (f : A -> bool) w i l : cnt f (blob w i l) <= cnt f l.
Proof.
  unfold blob. rewrite <- (firstn_skipn i l) at 2. rewrite <- (firstn_skipn w (skipn i l)) at 2.
  rewrite !cnt_app. pose proof (cnt_nonneg f (firstn i l)). pose proof (cnt_nonneg f (skipn w (skipn i l))). lia.
Qed.

Lemma cnt_all_forall {A} (f : A -> bool) l : cnt f l = Z.of_nat (length l) -> Forall (fun x => f x = true) l.
Proof.
  induction l as [|x l IH]; intros H; [constructor|].
  cbn [cnt length] in H. pose proof (cnt_le_length f l).
  destruct (f x) eqn:E; [|lia]. constructor; [exact E | apply IH; lia].
Qed.

Lemma forall_cnt_all {A} (f : A -> bool) l : Forall (fun x => f x = true) l -> cnt f l = Z.of_nat (length l).
Proof. induction 1 as [|x l Hx _ IH]; [reflexivity|]. cbn [cnt length]. rewrite Hx, IH. lia. Qed.

Lemma forall_cnt_none {A} (f g : A -> bool) l : (forall x, f x = true -> g x = false) ->
  Forall (fun x => f x = true) l -> cnt g l = 0.
Proof. intros Hfg. induction 1 as [|x l Hx _ IH]; [reflexivity|]. cbn [cnt]. rewrite (Hfg x Hx), IH. reflexivity. Qed.

(* Python's  str * int  on lists *)
Definition rep {A} (l : list A) (k : nat) : list A := concat (repeat l k).

Fixpoint lZ_eqb (a b : list Z) : bool :=
  match a, b with
  | [], [] => true
  | x :: a', y :: b' => Z.eqb x y && lZ_eqb a' b'
  | _, _ => false
  end.
Fixpoint llZ_eqb (a b : list (list Z)) : bool :=
  match a, b with
  | [], [] => true
  | x :: a', y :: b' => lZ_eqb x y && llZ_eqb a' b'
  | _, _ => false
  end.

(* any function satisfying the equation of an elementwise list comparison decides equality *)
Section ListEqb.
Context {A : Type} (eqb : A -> A -> bool) (leqb : list A -> list A -> bool)
  (eqb_eq : forall x y, eqb x y = true <-> x = y)
  (leqb_eqn : forall a b, leqb a b =
     match a, b with [], [] => true | x :: a', y :: b' => eqb x y && leqb a' b' | _, _ => false end).

Lemma list_eqb_eq a b : leqb a b = true <-> a = b.
Proof.
  revert b. induction a as [|x a IH]; intros [|y b]; rewrite leqb_eqn.
  - split; reflexivity.
  - split; discriminate.
  - split; discriminate.
  - rewrite andb_true_iff, eqb_eq, IH. split; [intros [-> ->]; reflexivity | intros [= -> ->]; split; reflexivity].
Qed.
End ListEqb.

Lemma lZ_eqb_eq a b : lZ_eqb a b = true <-> a = b.
Proof. apply (list_eqb_eq Z.eqb); [apply Z.eqb_eq | intros [|] [|]; reflexivity]. Qed.
Lemma llZ_eqb_eq a b : llZ_eqb a b = true <-> a = b.
Proof. apply (list_eqb_eq lZ_eqb); [apply lZ_eqb_eq | intros [|] [|]; reflexivity]. Qed.
