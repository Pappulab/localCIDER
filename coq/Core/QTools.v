(* Core/QTools.v — rational helpers used by every numeric model and by the
   correspondence predicates (which run inside Coq). *)
From Coq Require Import Qabs List Lia Permutation.
Import ListNotations.

Definition Qmaxb (a b : Q) : Q := if Qle_bool a b then b else a.

(* tolerance of the value-agreement rule of DESIGN.md: 1e-9, relative above 1 *)
Definition tol : Q := 1 # 1000000000.

(* implementation float x (as an exact dyadic rational) agrees with model value q *)
Definition close (x q : Q) : bool :=
  Qle_bool (Qabs (x - q)) (tol * Qmaxb 1 (Qabs q)).

(* q is within rounding distance of the decision boundary b *)
Definition near (q b : Q) : bool :=
  Qle_bool (Qabs (q - b)) (tol * Qmaxb 1 (Qabs b)).

Lemma Qle_bool_spec a b : BoolSpec (a <= b) (b < a) (Qle_bool a b).
Proof.
  destruct (Qle_bool a b) eqn:E; constructor; [now apply Qle_bool_iff|].
  apply Qnot_le_lt. rewrite <- Qle_bool_iff. congruence.
Qed.

Lemma Qlt_le_dec_compat {T} a b a' b' (x y : T) : a == a' -> b == b' ->
  (if Qlt_le_dec a b then x else y) = (if Qlt_le_dec a' b' then x else y).
Proof.
  intros Ha Hb. destruct (Qlt_le_dec a b) as [H|H], (Qlt_le_dec a' b') as [H'|H']; try reflexivity;
    exfalso; rewrite Ha, Hb in H; [exact (Qlt_not_le _ _ H H') | exact (Qlt_not_le _ _ H' H)].
Qed.

Lemma Qmake_div x a : (0 < a)%Z -> x # Z.to_pos a == inject_Z x / inject_Z a.
Proof. intros Ha. now rewrite Qmake_Qdiv, Z2Pos.id. Qed.

Lemma inject_Z_nz a : a <> 0%Z -> ~ inject_Z a == 0.
Proof. intros Ha H. apply Ha. unfold Qeq in H. simpl in H. lia. Qed.

Lemma pos_of_nat_Z k : (0 < k)%nat -> Z.pos (Pos.of_nat k) = Z.of_nat k.
Proof. intros H. rewrite <- positive_nat_Z, Nat2Pos.id by lia. reflexivity. Qed.

Definition sqQ (x : Q) : Q := x * x.

Lemma sqQ_nonneg x : 0 <= sqQ x.
Proof.
  unfold sqQ. destruct (Qlt_le_dec x 0) as [H|H].
  - setoid_replace (x * x) with ((-x) * (-x)) by ring.
    apply Qmult_le_0_compat; apply (Qopp_le_compat x 0); apply Qlt_le_weak; exact H.
  - apply Qmult_le_0_compat; exact H.
Qed.

Lemma sqQ_pos x : ~ x == 0 -> 0 < sqQ x.
Proof.
  intros H. destruct (proj1 (Qle_lteq _ _) (sqQ_nonneg x)) as [Hlt|E]; [exact Hlt|].
  symmetry in E. destruct (Qmult_integral _ _ E); contradiction.
Qed.

Fixpoint sumQ (l : list Q) : Q :=
  match l with [] => 0 | x :: l' => x + sumQ l' end.

Lemma sumQ_app a b : sumQ (a ++ b) == sumQ a + sumQ b.
Proof. induction a as [|x a IH]; simpl; [ring | rewrite IH; ring]. Qed.

Lemma sumQ_rev a : sumQ (rev a) == sumQ a.
Proof.
  induction a as [|x a IH]; simpl; [reflexivity|].
  rewrite sumQ_app, IH. simpl. ring.
Qed.

Lemma sumQ_nonneg l : (forall x, In x l -> 0 <= x) -> 0 <= sumQ l.
Proof.
  induction l as [|x l IH]; simpl; intros H; [apply Qle_refl|].
  setoid_replace 0 with (0 + 0) by ring.
  apply Qplus_le_compat; [apply H; left; reflexivity | apply IH; intros y Hy; apply H; right; exact Hy].
Qed.

Lemma sumQ_pos l y : (forall x, In x l -> 0 <= x) -> In y l -> 0 < y -> 0 < sumQ l.
Proof.
  intros Hnn Hin Hy. induction l as [|x l IH]; [destruct Hin|]. cbn [sumQ].
  assert (Hl : 0 <= sumQ l) by (apply sumQ_nonneg; intros; apply Hnn; now right).
  destruct Hin as [->|Hin].
  - rewrite <- (Qplus_0_r 0). apply Qplus_lt_le_compat; assumption.
  - rewrite <- (Qplus_0_l 0), (Qplus_comm x). apply Qplus_lt_le_compat; [|apply Hnn; now left].
    apply IH; [intros; apply Hnn; now right | exact Hin].
Qed.

Lemma sumQ_map_ext {A} (f g : A -> Q) l :
  (forall x, In x l -> f x == g x) -> sumQ (map f l) == sumQ (map g l).
Proof.
  induction l as [|x l IH]; simpl; intros H; [reflexivity|].
  rewrite (H x (or_introl eq_refl)), IH; [reflexivity|].
  intros y Hy. apply H. right. exact Hy.
Qed.

Lemma sumQ_map_zero {A} (f : A -> Q) l : (forall x, In x l -> f x == 0) -> sumQ (map f l) == 0.
Proof.
  induction l as [|x l IH]; simpl; intros H; [reflexivity|].
  rewrite (H x (or_introl eq_refl)), IH; [ring|]. intros y Hy. apply H. right. exact Hy.
Qed.

Lemma sumQ_perm a b : Permutation a b -> sumQ a == sumQ b.
Proof. induction 1; cbn [sumQ]; try reflexivity; [rewrite IHPermutation; reflexivity | ring | etransitivity; eassumption]. Qed.

Lemma sumQ_map_plus {A} (f g : A -> Q) l : sumQ (map (fun a => f a + g a) l) == sumQ (map f l) + sumQ (map g l).
Proof. induction l as [|x l IH]; cbn [map sumQ]; [ring | rewrite IH; ring]. Qed.

Lemma sumQ_map_scale {A} (f : A -> Q) c l : sumQ (map (fun a => c * f a) l) == c * sumQ (map f l).
Proof. induction l as [|x l IH]; cbn [map sumQ]; [ring | rewrite IH; ring]. Qed.

Lemma sumQ_map_div {A} (f : A -> Q) c l : sumQ (map (fun a => f a / c) l) == sumQ (map f l) / c.
Proof.
  unfold Qdiv. rewrite (Qmult_comm _ (/ c)), <- sumQ_map_scale.
  apply sumQ_map_ext. intros. apply Qmult_comm.
Qed.

Lemma sumQ_map_le {A} (f g : A -> Q) l : (forall a, f a <= g a) -> sumQ (map f l) <= sumQ (map g l).
Proof. intros H. induction l as [|x l IH]; cbn [map sumQ]; [apply Qle_refl | apply Qplus_le_compat; [apply H | exact IH]]. Qed.

(* an accumulating loop  ans += g i  with Qred at every step *)
Lemma fold_sum {A} (g : A -> Q) xs a :
  fold_left (fun ans i => Qred (ans + g i)) xs a == a + sumQ (map g xs).
Proof.
  revert a. induction xs as [|x xs IH]; intros a; cbn [fold_left map sumQ]; [ring|].
  rewrite IH, Qred_correct. ring.
Qed.

(* for the bounded translator ties: integer grids to sweep, table lookup, comparison of optional values *)
Definition zrange (lo hi : Z) : list Z := map (fun k => (lo + Z.of_nat k)%Z) (seq 0 (Z.to_nat (hi - lo + 1))).
Definition qz (z : Z) : Q := inject_Z z.
Fixpoint lookupQ {K} (eqb : K -> K -> bool) (k : K) (l : list (K * Q)) : option Q :=
  match l with [] => None | (k', v) :: l' => if eqb k k' then Some v else lookupQ eqb k l' end.
Definition oQeqb (a b : option Q) : bool :=
  match a, b with Some x, Some y => Qeq_bool x y | None, None => true | _, _ => false end.
