(* Core/MiniPyData.v — the data layer under Core.MiniPy: lists, Python indexing / item assignment / slicing on in-range
   indices, the embeddings of integers, strings, residues and dictionaries as values, numbers that are an int or an
   exact rational, and the arithmetic primitives the interpretation tables share.  Nothing here runs a statement. *)
From Coq Require Import List String Ascii QArith Lia.
From LC Require Import Core.Residue Core.Lists Core.QTools Core.MiniPy.
Import ListNotations.
Local Open Scope Z_scope.

Notation VN k := (VInt (Z.of_nat k)).
Notation la := list_ascii_of_string.
Notation sv s := (VStr (la s)).
Notation kv a := (VStr [aa_char a]).
Notation seq_val s := (VStr (map aa_char s)).
Notation chars_val cs := (map (fun c => VStr [c]) cs).
Notation pat_val p := (VList (map VInt p)).
Notation ints l := (map (fun k : nat => VInt (Z.of_nat k)) l).

Ltac lk := repeat (rewrite lookup_set_eq || rewrite lookup_set_neq by (reflexivity || assumption)).

Lemma nth_error_firstn {A} (l : list A) : forall n k, (k < n)%nat -> nth_error (firstn n l) k = nth_error l k.
Proof.
  induction l as [|x l IH]; intros n k H; [rewrite firstn_nil; reflexivity|].
  destruct n as [|n]; [lia|]. destruct k as [|k]; [reflexivity|]. cbn [firstn nth_error]. apply IH. lia.
Qed.
Lemma nth_error_skipn {A} (l : list A) : forall n k, nth_error (skipn n l) k = nth_error l (n + k).
Proof.
  induction l as [|x l IH]; intros n k; [rewrite skipn_nil; destruct k, n; reflexivity|].
  destruct n as [|n]; [reflexivity|]. cbn [skipn Nat.add nth_error]. apply IH.
Qed.

Lemma nth_error_combine_seq {A B} (f : nat -> A -> B) (t : list A) : forall k i,
  nth_error (map (fun p => f (fst p) (snd p)) (combine (seq k (List.length t)) t)) i = option_map (f (k + i)%nat) (nth_error t i).
Proof.
  induction t as [|a t IH]; intros k i; [destruct i; reflexivity|].
  cbn [List.length seq combine map]. destruct i as [|i]; cbn [nth_error option_map fst snd].
  - now rewrite Nat.add_0_r.
  - rewrite IH. now replace (S k + i)%nat with (k + S i)%nat by lia.
Qed.

Lemma skipn_add {A} (l : list A) i : forall p, skipn i (skipn p l) = skipn (p + i) l.
Proof. intros p. revert l. induction p as [|p IH]; intros [|x l]; cbn [skipn Nat.add]; rewrite ?skipn_nil; auto. Qed.

Lemma firstn_skipn_window {A} (l : list A) p0 w i ws : (i + ws <= w)%nat ->
  firstn ws (skipn i (firstn w (skipn p0 l))) = firstn ws (skipn (p0 + i) l).
Proof. intros H. rewrite skipn_firstn_comm, firstn_firstn, skipn_add. f_equal. lia. Qed.

Lemma window_chars {A} (d : A) : forall (l : list A) p n, (p + n <= List.length l)%nat ->
  firstn n (skipn p l) = map (fun k => nth (p + k) l d) (seq 0 n).
Proof.
  induction l as [|x l IH]; intros p n H; cbn [List.length] in H.
  - assert (n = 0%nat) by lia. subst n. now rewrite skipn_nil.
  - destruct p as [|p]; [|apply (IH p n); lia].
    destruct n as [|n]; [reflexivity|]. cbn [skipn firstn seq map Nat.add nth]. f_equal.
    rewrite <- seq_shift, map_map. apply (IH 0%nat n). lia.
Qed.
Lemma skipn_next {A} (l : list A) : forall c, (c < List.length l)%nat ->
  exists x, nth_error l c = Some x /\ skipn c l = x :: skipn (S c) l.
Proof.
  induction l as [|y l IH]; intros [|c] H; cbn [List.length] in H; try lia.
  - exists y. split; reflexivity.
  - apply IH. lia.
Qed.

Lemma map_repeat {A B} (f : A -> B) x n : map f (repeat x n) = repeat (f x) n.
Proof. induction n as [|n IH]; [reflexivity|]. cbn [repeat map]. now rewrite IH. Qed.

Lemma existsb_rev {A} (f : A -> bool) l : existsb f (rev l) = existsb f l.
Proof.
  induction l as [|x l IH]; [reflexivity|]. cbn [rev existsb]. rewrite existsb_app. cbn [existsb]. rewrite IH, orb_false_r. apply orb_comm.
Qed.

Lemma filter_filter {A} (f g : A -> bool) l : filter g (filter f l) = filter (fun x => f x && g x) l.
Proof.
  induction l as [|x l IH]; [reflexivity|]. cbn [filter]. destruct (f x); cbn [filter andb]; [destruct (g x)|]; now rewrite IH.
Qed.

(* what  [v] * k  evaluates to *)
Lemma concat_repeat_single {A} (v : A) k : List.concat (repeat [v] k) = repeat v k.
Proof. induction k as [|k IH]; [reflexivity|]. cbn [repeat List.concat app]. now rewrite IH. Qed.

Definition set_nth {A} (l : list A) (i : nat) (v : A) : list A := firstn i l ++ v :: skipn (S i) l.

Lemma set_nth_length {A} (l : list A) i v : (i < List.length l)%nat -> List.length (set_nth l i v) = List.length l.
Proof. intros H. unfold set_nth. rewrite app_length, firstn_length. cbn [List.length]. rewrite skipn_length. lia. Qed.

Lemma nth_error_set_nth {A} (l : list A) i v k : (i < List.length l)%nat ->
  nth_error (set_nth l i v) k = if Nat.eqb k i then Some v else nth_error l k.
Proof.
  intros H. unfold set_nth. assert (Hf : List.length (firstn i l) = i) by (rewrite firstn_length; lia).
  destruct (Nat.eqb_spec k i) as [->|Hne].
  - rewrite nth_error_app2, Hf, Nat.sub_diag by lia. reflexivity.
  - destruct (Nat.lt_ge_cases k i) as [Hlt|Hge].
    + rewrite nth_error_app1 by lia. apply nth_error_firstn. exact Hlt.
    + rewrite nth_error_app2, Hf by lia. replace (k - i)%nat with (S (k - S i)) by lia. cbn [nth_error].
      rewrite nth_error_skipn. f_equal. lia.
Qed.

Lemma set_nth_app {A} (done rest : list A) x v : set_nth (done ++ x :: rest) (List.length done) v = done ++ v :: rest.
Proof.
  unfold set_nth. rewrite firstn_app, Nat.sub_diag, firstn_all. cbn [firstn]. rewrite app_nil_r. f_equal. f_equal.
  change (S (List.length done)) with (1 + List.length done)%nat. rewrite Nat.add_comm, <- skipn_add.
  rewrite skipn_app, Nat.sub_diag, skipn_all. reflexivity.
Qed.

Lemma index_val_Z {A} (l : list A) k : 0 <= k < Z.of_nat (List.length l) -> index_val l k = nth_error l (Z.to_nat k).
Proof.
  intros H. unfold index_val.
  replace (k <? 0) with false by (symmetry; apply Z.ltb_ge; lia).
  now replace ((k <? 0) || (Z.of_nat (List.length l) <=? k)) with false
    by (symmetry; apply orb_false_iff; split; [apply Z.ltb_ge | apply Z.leb_gt]; lia).
Qed.
Lemma index_val_nat {A} (l : list A) i : (i < List.length l)%nat -> index_val l (Z.of_nat i) = nth_error l i.
Proof. intros H. rewrite index_val_Z by lia. now rewrite Nat2Z.id. Qed.

Lemma index_val_map {A B} (f : A -> B) (l : list A) (d : A) i : (i < List.length l)%nat ->
  index_val (map f l) (Z.of_nat i) = Some (f (nth i l d)).
Proof. intros H. rewrite index_val_nat by now rewrite map_length. now rewrite nth_error_map, (nth_error_nth' _ d H). Qed.
Lemma index_val_map_some {A B} (f : A -> B) (l : list A) i a : nth_error l i = Some a -> index_val (map f l) (Z.of_nat i) = Some (f a).
Proof.
  intros H. assert (i < List.length l)%nat by (apply nth_error_Some; congruence).
  rewrite index_val_nat by now rewrite map_length. now rewrite nth_error_map, H.
Qed.

Lemma index_val_app_mid {A} (pre : list A) a l : index_val (pre ++ a :: l) (Z.of_nat (List.length pre)) = Some a.
Proof.
  rewrite index_val_nat by (rewrite app_length; cbn [List.length]; lia). now rewrite nth_error_app2, Nat.sub_diag by lia.
Qed.
Lemma index_val_map_app_mid {A B} (f : A -> B) pre a l : index_val (map f (pre ++ a :: l)) (Z.of_nat (List.length pre)) = Some (f a).
Proof. rewrite map_app, <- (map_length f pre). apply index_val_app_mid. Qed.

Lemma index_val_last {A} (l : list A) x : index_val (l ++ [x]) (-1) = Some x.
Proof.
  rewrite <- (index_val_app_mid l x []). unfold index_val. rewrite app_length. cbn [List.length]. change (-1 <? 0) with true. cbv iota.
  replace (Z.of_nat (List.length l + 1) + -1) with (Z.of_nat (List.length l)) by lia.
  now rewrite !(proj2 (Z.ltb_ge _ 0) (Nat2Z.is_nonneg (List.length l))).
Qed.

Lemma index_val_0 {A} (x : A) l : index_val (x :: l) 0 = Some x.
Proof. reflexivity. Qed.

Lemma list_set_nat {A} (l : list A) i v : (i < List.length l)%nat -> list_set l (Z.of_nat i) v = Some (set_nth l i v).
Proof.
  intros H. unfold list_set, set_nth.
  replace (Z.of_nat i <? 0) with false by (symmetry; apply Z.ltb_ge; lia).
  replace ((Z.of_nat i <? 0) || (Z.of_nat (List.length l) <=? Z.of_nat i)) with false
    by (symmetry; apply orb_false_iff; split; [apply Z.ltb_ge | apply Z.leb_gt]; lia).
  now rewrite Nat2Z.id.
Qed.
Lemma list_set_mid {A} (done rest : list A) (x v : A) :
  list_set (done ++ x :: rest) (Z.of_nat (List.length done)) v = Some (done ++ v :: rest).
Proof. rewrite list_set_nat by (rewrite app_length; cbn [List.length]; lia). now rewrite set_nth_app. Qed.

Lemma clip_Z n k : 0 <= k <= Z.of_nat n -> clip n k = Z.to_nat k.
Proof. intros H. unfold clip. replace (k <? 0) with false by (symmetry; apply Z.ltb_ge; lia). f_equal. lia. Qed.
Lemma slice_bounds_Z n i j : 0 <= i <= Z.of_nat n -> 0 <= j <= Z.of_nat n ->
  slice_bounds n (VInt i) (VInt j) = Some (Z.to_nat i, Z.to_nat j).
Proof. intros Hi Hj. unfold slice_bounds. now rewrite !clip_Z. Qed.
(* a[i : i + w], in the form the translated terms produce *)
Lemma slice_bounds_nat' n i w : (i + w <= n)%nat ->
  slice_bounds n (VN i) (VInt (Z.of_nat i + Z.of_nat w)) = Some (i, (i + w)%nat).
Proof. intros H. rewrite <- Nat2Z.inj_add, slice_bounds_Z by lia. now rewrite !Nat2Z.id. Qed.

Lemma slice_list_nat {A} (f : A -> value) (l : list A) i w : (i + w <= List.length l)%nat ->
  (match slice_bounds (List.length (map f l)) (VN i) (VInt (Z.of_nat i + Z.of_nat w)) with
   | Some (a, b) => VList (firstn (b - a) (skipn a (map f l)))
   | None => VErr
   end) = VList (map f (blob w i l)).
Proof.
  intros H. rewrite slice_bounds_nat' by now rewrite map_length.
  rewrite Nat.add_comm, Nat.add_sub. unfold blob. now rewrite skipn_map, firstn_map.
Qed.
Lemma slice_str_nat {A} (f : A -> ascii) (l : list A) i w : (i + w <= List.length l)%nat ->
  (match slice_bounds (List.length (map f l)) (VN i) (VInt (Z.of_nat i + Z.of_nat w)) with
   | Some (a, b) => VStr (firstn (b - a) (skipn a (map f l)))
   | None => VErr
   end) = VStr (map f (blob w i l)).
Proof.
  intros H. rewrite slice_bounds_nat' by now rewrite map_length.
  rewrite Nat.add_comm, Nat.add_sub. unfold blob. now rewrite skipn_map, firstn_map.
Qed.

(* a[:-1] (also written a[0:-1]) and a[1:] *)
Lemma clip_neg1 n : clip (S n) (-1) = n.
Proof. unfold clip. change (-1 <? 0) with true. cbv iota. lia. Qed.
Lemma slice_bounds_drop_last {A} (l : list A) x lo : lo = VNone \/ lo = VInt 0 ->
  slice_bounds (List.length (l ++ [x])) lo (VInt (-1)) = Some (0%nat, List.length l).
Proof.
  intros H. rewrite app_length, Nat.add_comm. unfold slice_bounds. cbn [List.length Nat.add]. rewrite clip_neg1.
  destruct H as [-> | ->]; reflexivity.
Qed.
Lemma firstn_drop_last {A} (l : list A) x : firstn (List.length l - 0) (l ++ [x]) = l.
Proof. rewrite Nat.sub_0_r, firstn_app, firstn_all, Nat.sub_diag. cbn [firstn]. apply app_nil_r. Qed.
Lemma slice_bounds_from1 n : slice_bounds (S n) (VInt 1) VNone = Some (1%nat, S n).
Proof. unfold slice_bounds. rewrite clip_Z by lia. reflexivity. Qed.

Lemma leb_nat (a b : nat) : (Z.of_nat a <=? Z.of_nat b) = (a <=? b)%nat.
Proof. destruct (Nat.leb_spec a b); [apply Z.leb_le | apply Z.leb_gt]; lia. Qed.
Lemma eqb_nat (a b : nat) : (Z.of_nat a =? Z.of_nat b) = (a =? b)%nat.
Proof. destruct (Nat.eqb_spec a b) as [->|H]; [apply Z.eqb_refl | apply Z.eqb_neq; lia]. Qed.
Lemma leb_to_nat a b : (N.to_nat a <=? N.to_nat b)%nat = (a <=? b)%N.
Proof. apply eq_true_iff_eq. rewrite Nat.leb_le, N.leb_le. lia. Qed.

Lemma join_strs_nil_concat l : join_strs [] (map VStr l) = Some (List.concat l).
Proof.
  induction l as [|x l IH]; [reflexivity|]. cbn [map join_strs List.concat]. destruct l as [|y l].
  - cbn [map List.concat]. now rewrite app_nil_r.
  - cbn [map] in *. rewrite IH. reflexivity.
Qed.
Lemma join_chars (cs : list ascii) : join_strs [] (chars_val cs) = Some cs.
Proof.
  induction cs as [|c cs IH]; [reflexivity|]. cbn [map join_strs]. destruct cs as [|d cs]; [reflexivity|].
  cbn [map] in *. rewrite IH. reflexivity.
Qed.

(* a boolean fact about every character, from one evaluation over the 256 of them *)
Definition all_ascii : list ascii := map ascii_of_nat (seq 0 256).
Lemma ascii_sweep (P : ascii -> bool) : forallb P all_ascii = true -> forall c, P c = true.
Proof.
  intros H c. rewrite forallb_forall in H. apply H. rewrite <- (ascii_nat_embedding c).
  apply in_map, in_seq. pose proof (nat_ascii_bounded c). lia.
Qed.

Lemma veqb_VN a b : veqb (VN a) (VN b) = Nat.eqb a b.
Proof. apply eqb_nat. Qed.

Lemma ascii_list_eqb_eq s t : ascii_list_eqb s t = true <-> s = t.
Proof. apply (list_eqb_eq Ascii.eqb); [apply Ascii.eqb_eq | intros [|] [|]; reflexivity]. Qed.
Lemma veqb_VStr_eq s t : veqb (VStr s) (VStr t) = true <-> s = t.
Proof. apply ascii_list_eqb_eq. Qed.

Lemma char_eq c d : ascii_list_eqb [c] [d] = Ascii.eqb c d.
Proof. apply andb_true_r. Qed.
Lemma veqb_char c d : veqb (VStr [c]) (VStr [d]) = Ascii.eqb c d.
Proof. apply char_eq. Qed.

Lemma la_eqb a b : ascii_list_eqb (la a) (la b) = String.eqb a b.
Proof.
  revert b. induction a as [|c a IH]; intros [|d b]; cbn [la ascii_list_eqb String.eqb]; try reflexivity.
  rewrite IH. destruct (Ascii.eqb c d); reflexivity.
Qed.
Lemma veqb_sv a b : veqb (sv a) (sv b) = String.eqb a b.
Proof. apply la_eqb. Qed.

(* the existsb below are Model.Phospho.memn, Model.Html.in_strs and Core.Residue.mem_aa unfolded *)
Lemma existsb_VN k l : existsb (veqb (VN k)) (ints l) = existsb (Nat.eqb k) l.
Proof. induction l as [|x l IH]; [reflexivity|]. cbn [map existsb]. now rewrite veqb_VN, IH. Qed.
Lemma existsb_VInt_ints k l : 0 <= k -> existsb (veqb (VInt k)) (ints l) = existsb (Nat.eqb (Z.to_nat k)) l.
Proof. intros H. rewrite <- (Z2Nat.id k) at 1 by exact H. apply existsb_VN. Qed.
Lemma existsb_sv v l : existsb (veqb (sv v)) (map (fun x => sv x) l) = existsb (String.eqb v) l.
Proof. induction l as [|x l IH]; [reflexivity|]. cbn [map existsb]. now rewrite veqb_sv, IH. Qed.

Lemma not_bad v : v <> VErr /\ v <> VExc -> is_bad v = false.
Proof. intros [H1 H2]. destruct v; try reflexivity; congruence. Qed.
Lemma v_in_list x l : is_bad x = false -> v_in x (VList l) = VBool (existsb (veqb x) l).
Proof. destruct x; intros H; try discriminate H; reflexivity. Qed.
Lemma v_in_ints k l : v_in (VN k) (VList (ints l)) = VBool (existsb (Nat.eqb k) l).
Proof. rewrite v_in_list by reflexivity. now rewrite existsb_VN. Qed.

Lemma filter_ints (f : nat -> bool) (g : value -> bool) l : (forall k, g (VN k) = f k) -> filter g (ints l) = ints (filter f l).
Proof.
  intros H. induction l as [|x l IH]; [reflexivity|]. cbn [map filter]. rewrite H. destruct (f x); cbn [map]; now rewrite IH.
Qed.

(* set(): repeats removed, first occurrences kept *)
Lemma vdedup_In seen l v : In v (vdedup seen l) -> In v l.
Proof.
  revert seen. induction l as [|w l IH]; intros seen H; cbn [vdedup] in H; [destruct H|].
  destruct (existsb (veqb w) seen); [right; eapply IH; exact H|]. destruct H as [<-|H]; [left; reflexivity | right; eapply IH; exact H].
Qed.

Definition all_str (l : list value) : Prop := forall v, In v l -> exists s, v = VStr s.
Lemma all_str_nil : all_str [].
Proof. intros v []. Qed.
Lemma all_str_map {A} (f : A -> list ascii) l : all_str (map (fun x => VStr (f x)) l).
Proof. intros v Hv. apply in_map_iff in Hv. destruct Hv as [x [<- _]]. eexists. reflexivity. Qed.

Lemma forallb_vdedup (P : value -> bool) l : all_str l -> forall seen, all_str seen -> (forall w, In w seen -> P w = true) ->
  forallb P (vdedup seen l) = forallb P l.
Proof.
  induction l as [|v l IH]; intros Hl seen Hs HP; [reflexivity|]. cbn [vdedup forallb].
  assert (Hl' : all_str l) by (intros w Hw; apply Hl; right; exact Hw).
  destruct (Hl v (or_introl eq_refl)) as [s0 ->].
  destruct (existsb (veqb (VStr s0)) seen) eqn:E.
  - apply existsb_exists in E. destruct E as [w [Hw Ew]]. destruct (Hs w Hw) as [t ->]. apply veqb_VStr_eq in Ew. subst t.
    rewrite (HP _ Hw). cbn [andb]. apply IH; assumption.
  - cbn [forallb]. destruct (P (VStr s0)) eqn:EP; cbn [andb]; [|reflexivity].
    apply IH; [exact Hl' | |].
    + intros w [<-|Hw]; [eexists; reflexivity | apply Hs; exact Hw].
    + intros w [<-|Hw]; [exact EP | apply HP; exact Hw].
Qed.

Lemma existsb_vdedup x l : all_str l -> forall seen, all_str seen ->
  existsb (veqb (VStr x)) (vdedup seen l) || existsb (veqb (VStr x)) seen = existsb (veqb (VStr x)) l || existsb (veqb (VStr x)) seen.
Proof.
  induction l as [|v l IH]; intros Hl seen Hs; [reflexivity|]. cbn [vdedup existsb].
  assert (Hl' : all_str l) by (intros w Hw; apply Hl; right; exact Hw).
  destruct (Hl v (or_introl eq_refl)) as [t ->].
  destruct (existsb (veqb (VStr t)) seen) eqn:E.
  - rewrite (IH Hl' seen Hs). destruct (veqb (VStr x) (VStr t)) eqn:Ext; cbn [orb]; [|reflexivity].
    apply veqb_VStr_eq in Ext. subst t. rewrite E. now rewrite !orb_true_r.
  - cbn [existsb]. assert (Hs' : all_str (VStr t :: seen)) by (intros w [<-|Hw]; [eexists; reflexivity | apply Hs; exact Hw]).
    pose proof (IH Hl' (VStr t :: seen) Hs') as H. cbn [existsb] in H.
    destruct (veqb (VStr x) (VStr t)); cbn [orb] in *; [reflexivity|]. exact H.
Qed.

Fixpoint dedupn (seen l : list nat) : list nat :=
  match l with [] => [] | x :: l' => if existsb (Nat.eqb x) seen then dedupn seen l' else x :: dedupn (x :: seen) l' end.

Lemma vdedup_ints l : forall seen, vdedup (ints seen) (ints l) = ints (dedupn seen l).
Proof.
  induction l as [|x l IH]; intros seen; [reflexivity|]. cbn [map vdedup dedupn]. rewrite existsb_VN.
  destruct (existsb (Nat.eqb x) seen); [apply IH|]. cbn [map]. f_equal. apply (IH (x :: seen)).
Qed.

Lemma existsb_dedupn k l : forall seen,
  existsb (Nat.eqb k) (dedupn seen l) = existsb (Nat.eqb k) l && negb (existsb (Nat.eqb k) seen).
Proof.
  induction l as [|x l IH]; intros seen; [reflexivity|]. cbn [dedupn]. destruct (existsb (Nat.eqb x) seen) eqn:Ex.
  - rewrite IH. cbn [existsb]. destruct (Nat.eqb_spec k x) as [->|Hkx]; [|reflexivity].
    rewrite Ex. cbn. now rewrite andb_false_r.
  - cbn [existsb]. rewrite IH. cbn [existsb].
    destruct (Nat.eqb_spec k x) as [->|Hkx]; cbn [orb negb]; [now rewrite Ex | reflexivity].
Qed.

Lemma dedupn_nodup l : forall seen, NoDup l -> (forall x, In x l -> ~ In x seen) -> dedupn seen l = l.
Proof.
  induction l as [|x l IH]; intros seen Hn Hs; [reflexivity|]. inversion Hn as [|? ? Hx Hl]; subst. cbn [dedupn].
  replace (existsb (Nat.eqb x) seen) with false
    by (symmetry; apply not_true_is_false; rewrite (existsb_eqb_In Nat.eqb Nat.eqb_eq); exact (Hs x (or_introl eq_refl))).
  f_equal. apply IH; [exact Hl|]. intros y Hy [<-|Hys]; [exact (Hx Hy) | exact (Hs y (or_intror Hy) Hys)].
Qed.

(* sorted() reads its list with ints_of; an ascending list of positions is left as it is *)
Lemma ints_of_map zs : ints_of (map VInt zs) = Some zs.
Proof. induction zs as [|z zs IH]; [reflexivity|]. cbn [map ints_of]. now rewrite IH. Qed.
Lemma ints_of_ints l : ints_of (ints l) = Some (map Z.of_nat l).
Proof. rewrite <- ints_of_map. now rewrite map_map. Qed.

Lemma insertZ_head x l : (forall y, In y l -> x <= y) -> insertZ x l = x :: l.
Proof. destruct l as [|y l]; [reflexivity|]. intros H. cbn [insertZ]. now replace (x <=? y) with true by (symmetry; apply Z.leb_le, H; now left). Qed.

Lemma sort_filter_seq (g : nat -> bool) n : forall a, sortZ (map Z.of_nat (filter g (seq a n))) = map Z.of_nat (filter g (seq a n)).
Proof.
  induction n as [|n IH]; intros a; [reflexivity|]. cbn [seq filter]. destruct (g a); [|apply IH].
  cbn [map]. unfold sortZ. cbn [fold_right]. fold (sortZ (map Z.of_nat (filter g (seq (S a) n)))). rewrite IH.
  apply insertZ_head. intros y Hy. apply in_map_iff in Hy. destruct Hy as [x [<- Hx]]. apply filter_In in Hx.
  destruct Hx as [Hx _]. apply in_seq in Hx. lia.
Qed.

(* A residue a as the one-letter string kv a: aa_char is injective, so comparing the letters compares the residues *)
Lemma aa_char_inj a b : aa_char a = aa_char b -> a = b.
Proof. intros H. pose proof (aa_of_char_char a) as E. rewrite H, aa_of_char_char in E. now injection E. Qed.
Lemma aa_char_eqb x y : Ascii.eqb (aa_char x) (aa_char y) = aa_eqb x y.
Proof.
  destruct (aa_eqb_spec x y) as [->|H]; [apply Ascii.eqb_refl|]. apply Ascii.eqb_neq. intros E. apply H, aa_char_inj, E.
Qed.
Lemma kv_eqb a b : veqb (kv a) (kv b) = aa_eqb a b.
Proof. cbn [veqb ascii_list_eqb]. rewrite andb_true_r. apply aa_char_eqb. Qed.
Lemma kv_sv a : kv a = sv (aa_str a).
Proof. destruct a; reflexivity. Qed.

Lemma existsb_kv a l : existsb (veqb (kv a)) (map (fun b => kv b) l) = existsb (aa_eqb a) l.
Proof. induction l as [|b l IH]; [reflexivity|]. cbn [map existsb]. now rewrite kv_eqb, IH. Qed.
Lemma v_in_kv a l : v_in (kv a) (VList (map (fun b => kv b) l)) = VBool (existsb (aa_eqb a) l).
Proof. rewrite v_in_list by reflexivity. now rewrite existsb_kv. Qed.

(* `c in [...]` on the list literal of the one-letter codes, in the order of all20: looking a character up in it is what
   aa_of_char does *)
Definition res_letters : list value := map (fun a => kv a) all20.
Lemma in_letters c (l : list aa) :
  existsb (veqb (VStr [c])) (map (fun a => kv a) l) = if find (fun a => Ascii.eqb (aa_char a) c) l then true else false.
Proof.
  induction l as [|a l IH]; [reflexivity|]. cbn [map existsb find]. rewrite IH, veqb_char, Ascii.eqb_sym.
  destruct (Ascii.eqb (aa_char a) c); reflexivity.
Qed.
Lemma res_letter c : existsb (veqb (VStr [c])) res_letters = if aa_of_char c then true else false.
Proof. apply in_letters. Qed.

Lemma chg_sgn a : Z.sgn (chg a) = chg a.
Proof. destruct a; reflexivity. Qed.

Lemma map_upper_py_aa_char s : map upper_py (map aa_char s) = map aa_char s.
Proof. rewrite map_map. apply map_ext. now intros []. Qed.

Lemma count_substr1_aa_char x l : count_substr1 (aa_char x) (map aa_char l) = cnt (aa_eqb x) l.
Proof. induction l as [|y l IH]; [reflexivity|]. cbn [map count_substr1 cnt]. now rewrite IH, aa_char_eqb. Qed.

Lemma elements_seq_val s : elements (seq_val s) = Some (map (fun a => kv a) s).
Proof. cbn [elements]. now rewrite map_map. Qed.

(* TWENTY_AAs in the order of the source *)
Definition order_src : list aa :=
  [Arg; His; Lys; Asp; Glu; Ser; Thr; Asn; Gln; Cys; Gly; Pro; Ala; Ile; Leu; Met; Phe; Trp; Tyr; Val].
Lemma order_src_complete a : In a order_src.
Proof. destruct a; cbn; tauto. Qed.

Lemma aa_char_not_star a : Ascii.eqb "*" (aa_char a) = false.
Proof. destruct a; reflexivity. Qed.

(* three-letter names, the keys of the data module's tables *)
Definition three_val (a : aa) : value := VStr (list_ascii_of_string (aa_three a)).
Lemma aa_three_inj a b : aa_three a = aa_three b -> a = b.
Proof.
  intros H. assert (E : forall c, find (fun x => String.eqb (aa_three x) (aa_three c)) all20 = Some c) by (intros c; destruct c; reflexivity).
  pose proof (E a) as Ea. rewrite H, E in Ea. now injection Ea.
Qed.
Lemma three_val_eqb a b : veqb (three_val a) (three_val b) = aa_eqb a b.
Proof.
  unfold three_val. rewrite veqb_sv. destruct (aa_eqb_spec a b) as [->|H]; [apply String.eqb_refl|].
  apply String.eqb_neq. intros E. apply H, aa_three_inj, E.
Qed.

(* Dictionaries: a new key goes to the end; then dict_get and dict_set by the kind of key *)
Definition dict_of (v : value) : list (value * value) := match v with VDict d => d | _ => [] end.

Lemma dict_set_new k v d : dict_get k d = None -> dict_set k v d = d ++ [(k, v)].
Proof.
  induction d as [|[k' w] d IH]; intros H; [reflexivity|]. cbn [dict_get dict_set] in *.
  destruct (veqb k k'); [discriminate|]. cbn [app]. now rewrite IH.
Qed.

Lemma dict_get_assoc k d : dict_get (sv k) (map (fun p => (sv (fst p), sv (snd p))) d) = option_map (fun x => sv x) (assoc k d).
Proof.
  induction d as [|[k' v] d IH]; [reflexivity|]. cbn [map dict_get assoc fst snd]. rewrite veqb_sv.
  destruct (String.eqb k k'); [reflexivity | exact IH].
Qed.

Lemma find_aa_eqb a l : In a l -> find (aa_eqb a) l = Some a.
Proof.
  induction l as [|b l IH]; intros H; [destruct H|]. cbn [find]. destruct (aa_eqb_spec a b) as [->|Hne]; [reflexivity|].
  apply IH. destruct H as [->|H]; [contradiction | exact H].
Qed.
Lemma dict_get_kv (f : aa -> value) l a : dict_get (kv a) (map (fun b => (kv b, f b)) l) = option_map f (find (aa_eqb a) l).
Proof. induction l as [|b l IH]; [reflexivity|]. cbn [map dict_get find]. rewrite kv_eqb. destruct (aa_eqb a b); [reflexivity | exact IH]. Qed.
Lemma dict_get_kv_In (f : aa -> value) l a : In a l -> dict_get (kv a) (map (fun b => (kv b, f b)) l) = Some (f a).
Proof. intros H. now rewrite dict_get_kv, find_aa_eqb. Qed.
Lemma dict_set_kv (f : aa -> value) l a v : In a l -> NoDup l ->
  dict_set (kv a) v (map (fun b => (kv b, f b)) l) = map (fun b => (kv b, if aa_eqb b a then v else f b)) l.
Proof.
  induction l as [|b l IH]; intros Hin Hnd; [destruct Hin|]. inversion Hnd as [|? ? Hb Hl]; subst.
  cbn [map dict_set]. rewrite kv_eqb. destruct (aa_eqb_spec a b) as [->|Hne].
  - rewrite aa_eqb_refl. f_equal. apply map_ext_in. intros c Hc.
    destruct (aa_eqb_spec c b) as [->|_]; [contradiction | reflexivity].
  - destruct (aa_eqb_spec b a) as [->|_]; [contradiction|]. f_equal. apply IH; [|exact Hl].
    destruct Hin as [->|Hin]; [contradiction | exact Hin].
Qed.

(* residue letters, the table given by a list of pairs: the first pair with the letter is the one found *)
Lemma dict_get_kv_none {B} (g : B -> value) a (t : list (aa * B)) : ~ In a (map fst t) ->
  dict_get (kv a) (map (fun p => (kv (fst p), g (snd p))) t) = None.
Proof.
  induction t as [|[b c] t IH]; intros H; [reflexivity|]. cbn [map dict_get fst snd]. rewrite kv_eqb.
  destruct (aa_eqb_spec a b) as [->|Hne]; [exfalso; apply H; left; reflexivity|]. apply IH. intros Hin. apply H. right. exact Hin.
Qed.
Lemma dict_get_kv_some {B} (g : B -> value) a c (pre suf : list (aa * B)) : ~ In a (map fst pre) ->
  dict_get (kv a) (map (fun p => (kv (fst p), g (snd p))) (pre ++ (a, c) :: suf)) = Some (g c).
Proof.
  induction pre as [|[b x] pre IH]; intros H; cbn [app map dict_get fst snd]; rewrite kv_eqb.
  - now rewrite aa_eqb_refl.
  - destruct (aa_eqb_spec a b) as [->|Hne]; [exfalso; apply H; left; reflexivity|].
    apply IH. intros Hin. apply H. right. exact Hin.
Qed.

Lemma dict_get_three (f : aa -> value) l a : In a l -> dict_get (three_val a) (map (fun b => (three_val b, f b)) l) = Some (f a).
Proof.
  induction l as [|b l IH]; intros H; [destruct H|]. cbn [map dict_get]. rewrite three_val_eqb.
  destruct (aa_eqb_spec a b) as [->|Hne]; [reflexivity|]. apply IH. destruct H as [->|H]; [contradiction | exact H].
Qed.
Definition kd_table (kd : aa -> Q) : value := VDict (map (fun a => (three_val a, VQ (kd a))) all20).
Lemma kd_table_get kd a : dict_get (three_val a) (dict_of (kd_table kd)) = Some (VQ (kd a)).
Proof. exact (dict_get_three (fun b => VQ (kd b)) all20 a (all20_complete a)). Qed.

(* positions: the index -> character dictionary of a string *)
Fixpoint dict_from (a : nat) (cs : list ascii) : list (value * value) :=
  match cs with [] => [] | c :: cs' => (VN a, VStr [c]) :: dict_from (S a) cs' end.

Lemma dict_from_snoc c cs : forall a, dict_from a (cs ++ [c]) = dict_from a cs ++ [(VN (a + List.length cs), VStr [c])].
Proof.
  induction cs as [|d cs IH]; intros a; cbn [app dict_from List.length]; [now rewrite Nat.add_0_r|].
  f_equal. rewrite IH. now replace (a + S (List.length cs))%nat with (S a + List.length cs)%nat by lia.
Qed.
Lemma dict_get_from k cs : forall a, (a <= k)%nat ->
  dict_get (VN k) (dict_from a cs) = option_map (fun c => VStr [c]) (nth_error cs (k - a)).
Proof.
  induction cs as [|c cs IH]; intros a H; cbn [dict_from dict_get]; [destruct (k - a)%nat; reflexivity|].
  rewrite veqb_VN. destruct (Nat.eqb_spec k a) as [->|Hka].
  - now rewrite Nat.sub_diag.
  - rewrite IH by lia. replace (k - a)%nat with (S (k - S a)) by lia. reflexivity.
Qed.
Lemma dict_set_from v cs a : dict_set (VN (a + List.length cs)) v (dict_from a cs) = dict_from a cs ++ [(VN (a + List.length cs), v)].
Proof.
  apply dict_set_new. rewrite dict_get_from by lia. replace (a + List.length cs - a)%nat with (List.length cs) by lia.
  now rewrite (proj2 (nth_error_None cs (List.length cs))) by lia.
Qed.

(* numv v q: the value v is a number, an int or a rational kept exactly, and q is what it denotes *)
Inductive numv : value -> Q -> Prop := NI z : numv (VInt z) (inject_Z z) | NQ q : numv (VQ q) q.
Lemma numv_asQ v q : numv v q -> as_Q v = Some q. Proof. intros []; reflexivity. Qed.
Lemma numv_ok v q : numv v q -> is_bad v = false. Proof. intros []; reflexivity. Qed.

Lemma Qeq_bool_false x y : ~ (x == y)%Q -> Qeq_bool x y = false.
Proof. intros H. apply not_true_is_false. intros C. apply H, Qeq_bool_iff, C. Qed.
Lemma Qltb_dec x y : Qltb x y = if Qlt_le_dec x y then true else false.
Proof.
  unfold Qltb. destruct (Qlt_le_dec x y) as [H|H].
  - apply negb_true_iff, not_true_is_false. intros C. apply Qle_bool_iff in C. exact (Qlt_not_le _ _ H C).
  - apply negb_false_iff, Qle_bool_iff. exact H.
Qed.

Lemma Qeq_bool_inject_Z_0 z : Qeq_bool (inject_Z z) 0 = (z =? 0).
Proof. unfold Qeq_bool, inject_Z. cbn [Qnum Qden]. rewrite Z.mul_1_r. destruct z; reflexivity. Qed.

(* len + 0.0, the float of a length *)
Lemma floatlen_eq z : (Qred (inject_Z z + 0) == inject_Z z)%Q.
Proof. rewrite Qred_correct. ring. Qed.
Lemma Qeq_bool_floatlen z : Qeq_bool (Qred (inject_Z z + 0)) 0 = (z =? 0).
Proof. rewrite (Qeqb_comp _ _ (floatlen_eq z) _ _ (Qeq_refl 0)). apply Qeq_bool_inject_Z_0. Qed.
Lemma Qeq_bool_floatlen_nat n : Qeq_bool (Qred (inject_Z (Z.of_nat n) + 0)) 0 = (n =? 0)%nat.
Proof. rewrite Qeq_bool_floatlen. destruct n; reflexivity. Qed.

Lemma to_pos_of_nat n : Z.to_pos (Z.of_nat n) = Pos.of_nat n.
Proof. destruct n as [|n]; [reflexivity|]. cbn [Z.of_nat Z.to_pos]. apply Pos.of_nat_succ. Qed.

Lemma div_floatlen c z : 0 < z -> (inject_Z c / Qred (inject_Z z + 0) == c # Z.to_pos z)%Q.
Proof.
  intros H. rewrite floatlen_eq. destruct z as [|d|d]; try lia. unfold Qeq, Qdiv, Qmult, Qinv, inject_Z. cbn. lia.
Qed.
Lemma frac_floatlen c n : (1 <= n)%nat -> (Qred (inject_Z c / Qred (inject_Z (Z.of_nat n) + 0)) == c # Pos.of_nat n)%Q.
Proof. intros H. rewrite Qred_correct, div_floatlen by lia. now rewrite to_pos_of_nat. Qed.

Lemma mod_test n k : (Z.of_nat n mod Z.of_nat k =? 0) = (n mod k =? 0)%nat.
Proof.
  rewrite <- Nat2Z.inj_mod. destruct (Nat.eqb_spec (n mod k) 0) as [E|E].
  - rewrite E. reflexivity.
  - apply Z.eqb_neq. lia.
Qed.

(* Primitives the interpretation tables share, as functions of the argument list.  float(a) / b, exactly: *)
Definition qdiv_prim (args : list value) : value :=
  match args with
  | [a; b] => match as_Q a, as_Q b with
              | Some x, Some y => if Qeq_bool y 0 then VExc else VQ (Qred (x / y))
              | _, _ => VErr
              end
  | _ => VErr
  end.
Lemma qdiv_prim_numv v q w t : numv v q -> numv w t -> qdiv_prim [v; w] = if Qeq_bool t 0 then VExc else VQ (Qred (q / t)).
Proof. intros Hv Hw. cbn [qdiv_prim]. now rewrite (numv_asQ _ _ Hv), (numv_asQ _ _ Hw). Qed.
Lemma qdiv_prim_num v q n : numv v q -> n <> 0 -> qdiv_prim [v; VInt n] = VQ (Qred (q / inject_Z n)).
Proof.
  intros H Hn. rewrite (qdiv_prim_numv _ _ _ _ H (NI n)), Qeq_bool_inject_Z_0.
  now replace (n =? 0) with false by (symmetry; apply Z.eqb_neq; exact Hn).
Qed.

(* int(a / b) on ints *)
Definition int_div_prim (args : list value) : value :=
  match args with [VInt a; VInt b] => if b =? 0 then VExc else VInt (Z.quot a b) | _ => VErr end.

(* x ** 2 *)
Definition sq_prim (args : list value) : value :=
  match args with
  | [VInt a; VInt 2] => VInt (a * a)
  | [VQ q; VInt 2] => VQ (Qred (q * q))
  | _ => VErr
  end.
Lemma sq_prim_num v q : numv v q -> exists v' q', sq_prim [v; VInt 2] = v' /\ numv v' q' /\ (q' == q * q)%Q.
Proof.
  intros [z|x].
  - exists (VInt (z * z)), (inject_Z (z * z)). split; [reflexivity|]. split; [constructor|]. unfold Qeq, Qmult, inject_Z. cbn. lia.
  - exists (VQ (Qred (x * x))), (Qred (x * x)). split; [reflexivity|]. split; [constructor | apply Qred_correct].
Qed.

(* np.vstack((a, b)) *)
Definition vstack2_prim (args : list value) : value :=
  match args with [VList [a; b]] => VList [a; b] | _ => VErr end.

(* sum(list of numbers) as a float *)
Fixpoint sum_vals (l : list value) : option Q :=
  match l with [] => Some 0%Q | v :: l' => match as_Q v, sum_vals l' with Some x, Some y => Some (Qred (x + y)) | _, _ => None end end.
Definition sum_prim (args : list value) : value :=
  match args with [VList l] => match sum_vals l with Some q => VQ q | None => VErr end | _ => VErr end.
Lemma sum_vals_map_VQ {A} (f : A -> Q) (l : list A) : exists q, sum_vals (map (fun a => VQ (f a)) l) = Some q /\ (q == sumQ (map f l))%Q.
Proof.
  induction l as [|a l [q [E Hq]]]; [exists 0%Q; split; reflexivity|]. cbn [map sum_vals as_Q]. rewrite E.
  eexists. split; [reflexivity|]. cbn [sumQ]. rewrite Qred_correct, Hq. reflexivity.
Qed.

(* the value a call yields, from the outcome of running the callee's body *)
Definition ret_value (o : outcome) : value := match o with ORet v => v | ORaise => VExc | _ => VErr end.
