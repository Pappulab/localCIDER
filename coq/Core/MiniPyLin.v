(* Core/MiniPyLin.v — the frame shared by the translated sliding-window profiles of Sequence (linearDistOfNCPR, -FCR,
   -Sigma, -Hydropathy, linearDenistyOfAAs).  Every one of them is
       guard; nblobs; flank; flank_start / flank_end; res = [0]*nblobs;
       <statements that prepare the list the windows are cut from>;
       for i in range(0, nblobs): <one window>;
       return np.vstack((range(1, len+1), [0]*flank_start + res + [0]*flank_end))
   and differs only in the name of the result list, the preparation and the loop body.  [lin_head_run] runs the first line
   to an explicit environment, [lin_tail_run] the last two for any body that stores one value per window; [chain_run] and
   [mean_body_run] are the preparation loop and the loop body that the hydropathy and the density profile have in common
   (the flank arithmetic is Model.Windows.flanks). *)
From Coq Require Import List String Ascii QArith Lia.
From LC Require Import Core.Residue Core.Lists Core.QTools Core.MiniPy Core.MiniPyData Core.MiniPyExec Model.Windows.
Import ListNotations.
Local Open Scope Z_scope.

(* res[iv] = e, where the loop variable iv holds the number of entries already stored *)
Lemma exec_store prim res iv e r (done rest : list value) x i v :
  lookup res r = VList (done ++ x :: rest) -> List.length done = i -> lookup iv r = VN i -> eval prim e r = v -> is_bad v = false ->
  exec prim 0 (SSetItem res (EVar iv) e) r = ONorm (set res (VList (done ++ v :: rest)) r).
Proof.
  intros Hres <- Hi He Hv. apply (exec_setitem_list res _ _ r (done ++ x :: rest) (Z.of_nat (List.length done)) v); try assumption.
  apply list_set_mid.
Qed.

(* the window of width wv starting at iv: sv[iv : iv + wv] *)
Lemma eval_window prim sv iv wv (l : list value) w i r : (i + w <= List.length l)%nat ->
  lookup sv r = VList l -> lookup iv r = VN i -> lookup wv r = VN w ->
  eval prim (ESlice (EVar sv) (EVar iv) (EAdd (EVar iv) (EVar wv))) r = VList (blob w i l).
Proof.
  intros H Hl Hi Hb.
  rewrite (eval_slice_list _ _ _ _ l (Z.of_nat i) (Z.of_nat i + Z.of_nat w)); [| now rewrite eval_var .. | apply eval_add_int; now rewrite eval_var].
  rewrite (slice_bounds_nat' _ i w H), Nat.add_comm, Nat.add_sub. reflexivity.
Qed.

(* Sequence.__check_window_to_length, and what a primitive table makes of a call to it on the residue string cs *)
Definition window_guard : stmt := SIf (ELt (ELen (EVar "self.seq")) (EVar "bloblen")) SRaise SSkip.
Definition guard_call (cs : list ascii) (b : value) : value :=
  match exec noprim 0 window_guard [("self.seq"%string, VStr cs); ("bloblen"%string, b)] with
  | ONorm _ => VNone | ORaise => VExc | _ => VErr end.

Lemma guard_call_spec cs w : guard_call cs (VN w) = if (List.length cs <? w)%nat then VExc else VNone.
Proof.
  unfold guard_call, window_guard.
  assert (T : truthy (eval noprim (ELt (ELen (EVar "self.seq")) (EVar "bloblen")) [("self.seq"%string, VStr cs); ("bloblen"%string, VN w)]) =
              VBool (List.length cs <? w)%nat).
  { cbn [eval lookup String.eqb Ascii.eqb Bool.eqb cmp_int bad2 truthy]. f_equal.
    destruct (Nat.ltb_spec (List.length cs) w); [apply Z.ltb_lt | apply Z.ltb_ge]; lia. }
  destruct (List.length cs <? w)%nat; [rewrite (exec_if_true _ _ _ _ T) | rewrite (exec_if_false _ _ _ _ T)]; reflexivity.
Qed.

Definition lin_pad : stmt :=
  SIf (EEq (EAdd (EMul (EConst (VInt 2)) (EVar "flank")) (EVar "nblobs")) (EVar "self.len"))
      (SSeq (SAssign "flank_start" (EVar "flank")) (SAssign "flank_end" (EVar "flank")))
      (SSeq (SAssign "flank_start" (ESub (EVar "flank") (EConst (VInt 1)))) (SAssign "flank_end" (EVar "flank"))).
Definition lin_head (res : string) : list stmt :=
  [SAssign "$_" (ECall "__check_window_to_length" [EVar "bloblen"]);
   SAssign "nblobs" (EAdd (ESub (EVar "self.len") (EVar "bloblen")) (EConst (VInt 1)));
   SAssign "flank" (ECall "int_div" [EVar "bloblen"; EConst (VInt 2)]);
   lin_pad;
   SAssign res (EMul (EListLit [EConst (VInt 0)]) (EVar "nblobs"))].
Definition lin_rows (res : string) : stmt :=
  SReturn (ECall "np.vstack" [EListLit [ERange (EConst (VInt 1)) (EAdd (EVar "self.len") (EConst (VInt 1)));
                                       EAdd (EAdd (EMul (EListLit [EConst (VInt 0)]) (EVar "flank_start")) (EVar res))
                                            (EMul (EListLit [EConst (VInt 0)]) (EVar "flank_end"))]]).

(* the environment after [lin_head], for a sequence of N residues and a window of w *)
Definition lin_env (N w : nat) (res : string) (r : env) : env :=
  set res (VList (repeat (VInt 0) (N + 1 - w)))
    (set "flank_end" (VN (snd (flanks w N))) (set "flank_start" (VN (fst (flanks w N)))
      (set "flank" (VN (w / 2)) (set "nblobs" (VN (N + 1 - w)) (set "$_" VNone r))))).

Section Head.
Variable prim : string -> list value -> value.
Variable cs : list ascii.             (* self.seq, of which the guard reads the length *)
Variable N w : nat.                   (* self.len and bloblen *)
Hypothesis Hcs : List.length cs = N.
Hypothesis prim_guard : forall b, prim "__check_window_to_length" [b] = guard_call cs b.
Hypothesis prim_int_div : forall args, prim "int_div" args = int_div_prim args.
Local Notation exec := (MiniPy.exec prim 0).
Local Notation eval := (MiniPy.eval prim).
Local Notation nb := (N + 1 - w)%nat.

(* rejection exactly when the window is longer than the sequence.  A window of 0 is left out: for it the code sets
   flank_start = int(0/2) - 1, which is not a number of zeros *)
Lemma lin_head_run res rest r : (1 <= w)%nat -> lookup "self.len" r = VN N -> lookup "bloblen" r = VN w ->
  exec_list prim 0 (lin_head res ++ rest) r = if (N <? w)%nat then ORaise else exec_list prim 0 rest (lin_env N w res r).
Proof.
  intros Hw Hlen Hb. unfold lin_head, lin_env. cbn [app].
  assert (Eg : eval (ECall "__check_window_to_length" [EVar "bloblen"]) r = if (N <? w)%nat then VExc else VNone).
  { rewrite (eval_call1 _ _ _ (VN w)); [| rewrite eval_var; exact Hb | reflexivity]. now rewrite prim_guard, guard_call_spec, Hcs. }
  destruct (Nat.ltb_spec N w) as [Hlt|Hge].
  { rewrite exec_list_cons, exec_assign, Eg. reflexivity. }
  rewrite (step_assign_list _ _ _ _ _ Eg eq_refl).
  set (r0 := set "$_" VNone r).
  assert (En : eval (EAdd (ESub (EVar "self.len") (EVar "bloblen")) (EConst (VInt 1))) r0 = VN nb).
  { rewrite (eval_add_int _ _ _ (Z.of_nat N - Z.of_nat w) 1); [f_equal; lia | | reflexivity].
    apply eval_sub_int; rewrite eval_var; unfold r0; lk; assumption. }
  rewrite (step_assign_list _ _ _ _ _ En eq_refl).
  set (r1 := set "nblobs" (VN nb) r0).
  set (f := (w / 2)%nat).
  assert (Ef : eval (ECall "int_div" [EVar "bloblen"; EConst (VInt 2)]) r1 = VN f).
  { rewrite (eval_call2 _ _ _ _ (VN w) (VInt 2)); [| rewrite eval_var; unfold r1, r0; lk; exact Hb | reflexivity | reflexivity | reflexivity].
    rewrite prim_int_div. cbn [int_div_prim Z.eqb]. f_equal. unfold f. rewrite Z.quot_div_nonneg by lia. now rewrite (Nat2Z.inj_div w 2). }
  rewrite (step_assign_list _ _ _ _ _ Ef eq_refl).
  set (r2 := set "flank" (VN f) r1).
  assert (Tf : eval (EEq (EAdd (EMul (EConst (VInt 2)) (EVar "flank")) (EVar "nblobs")) (EVar "self.len")) r2 = VBool (2 * f + nb =? N)%nat).
  { rewrite <- eqb_nat. replace (Z.of_nat (2 * f + nb)) with (2 * Z.of_nat f + Z.of_nat nb) by lia. apply eval_eq_int.
    - apply eval_add_int; [| rewrite eval_var; unfold r2, r1; lk; reflexivity].
      apply eval_mul_int; [reflexivity | rewrite eval_var; unfold r2; lk; reflexivity].
    - rewrite eval_var. unfold r2, r1, r0. lk. exact Hlen. }
  assert (Efl : exec lin_pad r2 = ONorm (set "flank_end" (VN (snd (flanks w N))) (set "flank_start" (VN (fst (flanks w N))) r2))).
  { assert (Ev : forall r', eval (EVar "flank") (set "flank_start" r' r2) = VN f) by (intros r'; rewrite eval_var; unfold r2; lk; reflexivity).
    unfold lin_pad, flanks. fold f. rewrite (exec_if_bool _ _ _ _ _ Tf). destruct (2 * f + nb =? N)%nat eqn:Eq; cbn [fst snd].
    - rewrite (step_assign _ _ _ _ (VN f)) by (reflexivity || (rewrite eval_var; unfold r2; lk; reflexivity)).
      apply exec_assign_ok; [apply Ev | reflexivity].
    - (* here flank >= 1: otherwise w = 1, nblobs = N and the test had held *)
      assert (Hf1 : (1 <= f)%nat).
      { apply Nat.eqb_neq in Eq. unfold f in *. pose proof (Nat.div_mod w 2 ltac:(lia)). pose proof (Nat.mod_upper_bound w 2 ltac:(lia)). lia. }
      assert (Es : eval (ESub (EVar "flank") (EConst (VInt 1))) r2 = VN (f - 1)).
      { rewrite (eval_sub_int _ _ _ (Z.of_nat f) 1); [f_equal; lia | rewrite eval_var; unfold r2; lk; reflexivity | reflexivity]. }
      rewrite (step_assign _ _ _ _ _ Es eq_refl).
      apply exec_assign_ok; [apply Ev | reflexivity]. }
  rewrite (step_norm_list _ _ _ _ Efl).
  apply step_assign_list; [| reflexivity].
  apply eval_mul_rep1; [reflexivity|]. rewrite eval_var. unfold r2, r1. lk. reflexivity.
Qed.
End Head.

(* the loop over the windows and the two rows, for ANY loop body that stores one value per window *)
Section Tail.
Variable prim : string -> list value -> value.
Variable N w : nat.
Hypothesis prim_vstack : forall args, prim "np.vstack" args = vstack2_prim args.
Local Notation exec := (MiniPy.exec prim 0).
Local Notation eval := (MiniPy.eval prim).
Local Notation nb := (N + 1 - w)%nat.

Variable res : string.                (* the result list *)
Variable sv : string.                 (* the list the windows are cut from ... *)
Variable src : value.                 (* ... and its value, which the frame never inspects *)
Variable body : stmt.
Variable val : nat -> value.          (* what the body stores for the window starting at i *)
Hypothesis res_i : String.eqb res "i" = false.
Hypothesis sv_i : String.eqb sv "i" = false.
Hypothesis body_spec : forall i (done rest : list value) x r, (i + w <= N)%nat -> List.length done = i ->
  lookup sv r = src -> lookup "bloblen" r = VN w -> lookup "i" r = VN i -> lookup res r = VList (done ++ x :: rest) ->
  exists r', exec body r = ONorm r' /\ lookup res r' = VList (done ++ val i :: rest) /\
    lookup sv r' = lookup sv r /\ lookup "bloblen" r' = lookup "bloblen" r /\
    lookup "self.len" r' = lookup "self.len" r /\ lookup "nblobs" r' = lookup "nblobs" r /\
    lookup "flank_start" r' = lookup "flank_start" r /\ lookup "flank_end" r' = lookup "flank_end" r.

Lemma lin_loop : forall m k (done : list value) r, (k + m + w = N + 1)%nat -> List.length done = k ->
  lookup sv r = src -> lookup "bloblen" r = VN w -> lookup res r = VList (done ++ repeat (VInt 0) m) ->
  exists r', run_loop prim 0 "i" body (map (fun j => VN j) (seq k m)) r = ONorm r' /\
    lookup res r' = VList (done ++ map val (seq k m)) /\
    lookup "self.len" r' = lookup "self.len" r /\ lookup "nblobs" r' = lookup "nblobs" r /\
    lookup "flank_start" r' = lookup "flank_start" r /\ lookup "flank_end" r' = lookup "flank_end" r.
Proof.
  induction m as [|m IH]; intros k done r Hkm Hd Hp Hb Hres.
  - exists r. cbn [seq map run_loop repeat] in *. repeat split; assumption || reflexivity.
  - cbn [seq map run_loop repeat] in *.
    destruct (body_spec k done (repeat (VInt 0) m) (VInt 0) (set "i" (VN k) r)) as [r1 [Eb [Hr1 [Hp1 [Hb1 [Hl1 [Hn1 [Hs1 He1]]]]]]]]; try assumption; try lia.
    { lk. exact Hp. } { lk. exact Hb. } { lk. reflexivity. } { lk. exact Hres. }
    rewrite Eb.
    destruct (IH (S k) (done ++ [val k]) r1) as [r2 [Ex2 [Hr2 [Hl2 [Hn2 [Hs2 He2]]]]]]; try lia.
    { rewrite app_length. cbn [List.length]. lia. }
    { rewrite Hp1. lk. exact Hp. } { rewrite Hb1. lk. exact Hb. } { rewrite Hr1, <- app_assoc. reflexivity. }
    exists r2. split; [exact Ex2|]. split; [rewrite Hr2, <- app_assoc; reflexivity|].
    rewrite Hl2, Hn2, Hs2, He2, Hl1, Hn1, Hs1, He1. lk. repeat split; reflexivity.
Qed.

Lemma lin_tail_run r : lookup "self.len" r = VN N -> lookup "nblobs" r = VN nb -> lookup "bloblen" r = VN w ->
  lookup "flank_start" r = VN (fst (flanks w N)) -> lookup "flank_end" r = VN (snd (flanks w N)) ->
  lookup sv r = src -> lookup res r = VList (repeat (VInt 0) nb) -> (w <= N)%nat ->
  exec_list prim 0 [SFor "i" (ERange (EConst (VInt 0)) (EVar "nblobs")) body; lin_rows res] r =
  ORet (VList [VList (map (fun j => VN j) (seq 1 N));
               VList (repeat (VInt 0) (fst (flanks w N)) ++ map val (seq 0 nb) ++ repeat (VInt 0) (snd (flanks w N)))]).
Proof.
  intros Hlen Hnb Hb Hfs Hfe Hp Hres Hge.
  rewrite exec_list_cons, (exec_for_range0 "i" (EConst (VInt 0)) _ body r nb eq_refl) by (rewrite eval_var; exact Hnb).
  destruct (lin_loop nb 0 [] r) as [r5 [Ex5 [Hr5 [Hl5 [Hn5 [Hs5 He5]]]]]]; try assumption; try reflexivity; try lia.
  rewrite Ex5. cbn [app] in Hr5. unfold lin_rows.
  assert (Erow1 : eval (ERange (EConst (VInt 1)) (EAdd (EVar "self.len") (EConst (VInt 1)))) r5 = VList (map (fun j => VN j) (seq 1 N))).
  { replace (seq 1 N) with (seq 1 (N + 1 - 1)) by now rewrite Nat.add_sub. apply eval_range_nat; [reflexivity|].
    rewrite Nat2Z.inj_add. apply eval_add_int; [| reflexivity]. rewrite eval_var, Hl5. exact Hlen. }
  assert (Erow2 : eval (EAdd (EAdd (EMul (EListLit [EConst (VInt 0)]) (EVar "flank_start")) (EVar res)) (EMul (EListLit [EConst (VInt 0)]) (EVar "flank_end"))) r5 =
                  VList (repeat (VInt 0) (fst (flanks w N)) ++ map val (seq 0 nb) ++ repeat (VInt 0) (snd (flanks w N)))).
  { rewrite app_assoc. apply eval_add_list; [apply eval_add_list|].
    - apply eval_mul_rep1; [reflexivity | now rewrite eval_var, Hs5].
    - now rewrite eval_var.
    - apply eval_mul_rep1; [reflexivity | now rewrite eval_var, He5]. }
  apply step_return_list; [| reflexivity].
  rewrite (eval_call1 _ _ _ _ (eval_listlit2 _ _ _ _ _ Erow1 Erow2 eq_refl eq_refl) eq_refl). apply prim_vstack.
Qed.
End Tail.

(* the preparation of those two profiles: a loop over the residues of self.seq whose body appends one value per residue to
   the list [chain] and may read one more variable k *)
Section Chain.
Variable prim : string -> list value -> value.
Variable x chain k : string.
Variable kval : value.
Variable body : stmt.
Variable f : aa -> value.
Hypothesis chain_x : String.eqb chain x = false.
Hypothesis k_x : String.eqb k x = false.
Hypothesis k_chain : String.eqb k chain = false.
Hypothesis body_step : forall a acc r, lookup k r = kval -> lookup chain r = VList acc -> lookup x r = kv a ->
  exec prim 0 body r = ONorm (set chain (VList (acc ++ [f a])) r).

Lemma chain_run : forall (t : list aa) acc r, lookup k r = kval -> lookup chain r = VList acc ->
  exists r', run_loop prim 0 x body (map (fun a => kv a) t) r = ONorm r' /\ lookup chain r' = VList (acc ++ map f t) /\
    same_except [chain; x] r r'.
Proof.
  induction t as [|a t IH]; intros acc r Hk Hc; cbn [map].
  - exists r. rewrite app_nil_r. split; [reflexivity|]. split; [exact Hc | apply same_except_refl].
  - rewrite run_loop_cons, (body_step a acc) by (lk; assumption || reflexivity).
    destruct (IH (acc ++ [f a]) (set chain (VList (acc ++ [f a])) (set x (kv a) r))) as [r' [E [H1 H2]]]; [lk; exact Hk | lk; reflexivity |].
    exists r'. split; [exact E|]. split; [now rewrite H1, <- app_assoc|].
    apply (same_except_trans _ r (set chain (VList (acc ++ [f a])) (set x (kv a) r))); [|exact H2].
    apply same_except_step; [now left|]. apply same_except_set. right. now left.
Qed.
End Chain.

(* the loop body of the two profiles that average a list of numbers over each window:
       blob = sv[i : i+bloblen];  res[i] = sum(blob) / bloblen
   where the list in sv holds one rational f a per residue a; [mean_val] is the value stored for a window *)
Definition mean_body (sv res : string) : stmt :=
  SSeq (SAssign "blob" (ESlice (EVar sv) (EVar "i") (EAdd (EVar "i") (EVar "bloblen"))))
       (SSetItem res (EVar "i") (ECall "qdiv" [ECall "sum" [EVar "blob"]; EVar "bloblen"])).
Definition mean_val {A} (f : A -> Q) (w : nat) (b : list A) : value :=
  match sum_vals (map (fun a => VQ (f a)) b) with Some q => VQ (Qred (q / inject_Z (Z.of_nat w))) | None => VErr end.

Lemma mean_val_model {A} (f : A -> Q) w b : exists q, mean_val f w b = VQ q /\ (q == sumQ (map f b) / inject_Z (Z.of_nat w))%Q.
Proof.
  unfold mean_val. destruct (sum_vals_map_VQ f b) as [q [E Hq]]. rewrite E. eexists. split; [reflexivity|].
  rewrite Qred_correct, Hq. reflexivity.
Qed.

Section Mean.
Variable prim : string -> list value -> value.
Hypothesis prim_sum : forall args, prim "sum" args = sum_prim args.
Hypothesis prim_qdiv : forall args, prim "qdiv" args = qdiv_prim args.

Lemma mean_body_run {A} (f : A -> Q) sv res (s : list A) w i (done rest : list value) x r :
  (i + w <= List.length s)%nat -> (1 <= w)%nat -> List.length done = i -> String.eqb res "blob" = false ->
  lookup sv r = VList (map (fun a => VQ (f a)) s) -> lookup "bloblen" r = VN w -> lookup "i" r = VN i -> lookup res r = VList (done ++ x :: rest) ->
  exec prim 0 (mean_body sv res) r =
  ONorm (set res (VList (done ++ mean_val f w (blob w i s) :: rest)) (set "blob" (VList (blob w i (map (fun a => VQ (f a)) s))) r)).
Proof.
  intros Hi Hw Hd Hrb Hl Hb Hii Hres. unfold mean_body, mean_val.
  destruct (sum_vals_map_VQ f (blob w i s)) as [q [Hq _]]. rewrite Hq, <- blob_map in *.
  set (l := map (fun a => VQ (f a)) s) in *.
  assert (Hil : (i + w <= List.length l)%nat) by (unfold l; now rewrite map_length).
  rewrite (step_assign _ _ _ _ _ (eval_window prim sv "i" "bloblen" l w i r Hil Hl Hii Hb) eq_refl).
  set (r1 := set "blob" (VList (blob w i l)) r).
  assert (E1 : eval prim (ECall "sum" [EVar "blob"]) r1 = VQ q).
  { rewrite (eval_call1 _ _ _ (VList (blob w i l))); [| rewrite eval_var; unfold r1; lk; reflexivity | reflexivity].
    rewrite prim_sum. cbn [sum_prim]. now rewrite Hq. }
  assert (Ev : eval prim (ECall "qdiv" [ECall "sum" [EVar "blob"]; EVar "bloblen"]) r1 = VQ (Qred (q / inject_Z (Z.of_nat w)))).
  { rewrite (eval_call2 _ _ _ _ (VQ q) (VN w) E1); [| rewrite eval_var; unfold r1; lk; exact Hb | reflexivity | reflexivity].
    rewrite prim_qdiv. apply qdiv_prim_num; [constructor | lia]. }
  apply (exec_store prim res "i" _ r1 done rest x i); [unfold r1; lk; exact Hres | exact Hd | unfold r1; lk; exact Hii | exact Ev | reflexivity].
Qed.
End Mean.
