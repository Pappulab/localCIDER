(* Core/Residue.v — the 20 amino acids, their one-letter codes, charge classes.
   Shared by every model.  No proofs about the Python code live here. *)
From Coq Require Import List Ascii String ZArith Bool.
From LC Require Import Core.Lists.
Import ListNotations.

Inductive aa :=
  Ala | Cys | Asp | Glu | Phe | Gly | His | Ile | Lys | Leu
| Met | Asn | Pro | Gln | Arg | Ser | Thr | Val | Trp | Tyr.

Definition all20 : list aa :=
  [Ala; Cys; Asp; Glu; Phe; Gly; His; Ile; Lys; Leu;
   Met; Asn; Pro; Gln; Arg; Ser; Thr; Val; Trp; Tyr].

Definition aa_idx (a : aa) : nat :=
  match a with
  | Ala => 0 | Cys => 1 | Asp => 2 | Glu => 3 | Phe => 4 | Gly => 5 | His => 6
  | Ile => 7 | Lys => 8 | Leu => 9 | Met => 10 | Asn => 11 | Pro => 12
  | Gln => 13 | Arg => 14 | Ser => 15 | Thr => 16 | Val => 17 | Trp => 18
  | Tyr => 19
  end.

Definition aa_eqb (a b : aa) : bool := Nat.eqb (aa_idx a) (aa_idx b).

Lemma nth_aa_idx a : nth (aa_idx a) all20 Ala = a.
Proof. destruct a; reflexivity. Qed.

Lemma aa_eqb_spec a b : reflect (a = b) (aa_eqb a b).
Proof.
  unfold aa_eqb. destruct (Nat.eqb_spec (aa_idx a) (aa_idx b)) as [E|E]; constructor.
  - rewrite <- (nth_aa_idx a), E. apply nth_aa_idx.
  - intros ->. now apply E.
Qed.

Lemma aa_eqb_refl a : aa_eqb a a = true.
Proof. apply Nat.eqb_refl. Qed.

Lemma aa_eqb_eq a b : aa_eqb a b = true <-> a = b.
Proof. destruct (aa_eqb_spec a b); split; congruence. Qed.

Lemma aa_eq_dec (a b : aa) : {a = b} + {a <> b}.
Proof. decide equality. Defined.

Lemma all20_complete a : In a all20.
Proof. destruct a; simpl; tauto. Qed.

Lemma all20_nodup : NoDup all20.
Proof.
  unfold all20. repeat (constructor; [simpl; intuition congruence|]). constructor.
Qed.

Definition mem_aa (x : aa) (l : list aa) : bool := existsb (aa_eqb x) l.

Lemma mem_aa_In x l : mem_aa x l = true <-> In x l.
Proof. apply existsb_eqb_In, aa_eqb_eq. Qed.

Definition aa_char (a : aa) : ascii :=
  match a with
  | Ala => "A" | Cys => "C" | Asp => "D" | Glu => "E" | Phe => "F" | Gly => "G"
  | His => "H" | Ile => "I" | Lys => "K" | Leu => "L" | Met => "M" | Asn => "N"
  | Pro => "P" | Gln => "Q" | Arg => "R" | Ser => "S" | Thr => "T" | Val => "V"
  | Trp => "W" | Tyr => "Y"
  end%char.

Definition aa_of_char (c : ascii) : option aa :=
  find (fun a => Ascii.eqb (aa_char a) c) all20.

Lemma aa_of_char_char a : aa_of_char (aa_char a) = Some a.
Proof. destruct a; reflexivity. Qed.

Lemma aa_of_char_some c a : aa_of_char c = Some a -> aa_char a = c.
Proof.
  unfold aa_of_char. intros H. apply find_some in H. destruct H as [_ H].
  apply Ascii.eqb_eq in H. exact H.
Qed.

(* three-letter code, as used as dictionary key in data/aminoacids.py *)
Definition aa_three (a : aa) : string :=
  match a with
  | Ala => "ALA" | Cys => "CYS" | Asp => "ASP" | Glu => "GLU" | Phe => "PHE"
  | Gly => "GLY" | His => "HIS" | Ile => "ILE" | Lys => "LYS" | Leu => "LEU"
  | Met => "MET" | Asn => "ASN" | Pro => "PRO" | Gln => "GLN" | Arg => "ARG"
  | Ser => "SER" | Thr => "THR" | Val => "VAL" | Trp => "TRP" | Tyr => "TYR"
  end.

Fixpoint parse_chars (cs : list ascii) : option (list aa) :=
  match cs with
  | [] => Some []
  | c :: cs' =>
      match aa_of_char c, parse_chars cs' with
      | Some a, Some l => Some (a :: l)
      | _, _ => None
      end
  end.

Definition parse_seq (s : string) : option (list aa) :=
  parse_chars (list_ascii_of_string s).

Definition show_seq (l : list aa) : string :=
  string_of_list_ascii (map aa_char l).

Lemma parse_chars_show l : parse_chars (map aa_char l) = Some l.
Proof.
  induction l as [|a l IH]; simpl; [reflexivity|].
  rewrite aa_of_char_char, IH. reflexivity.
Qed.

Lemma parse_show l : parse_seq (show_seq l) = Some l.
Proof.
  unfold parse_seq, show_seq. rewrite list_ascii_of_string_of_list_ascii.
  apply parse_chars_show.
Qed.

(* charge class: the statement of every patterning property
   (K,R positive; D,E negative; everything else neutral) *)
Definition chg (a : aa) : Z :=
  match a with
  | Lys | Arg => 1
  | Asp | Glu => -1
  | _ => 0
  end%Z.

Definition pat (s : list aa) : list Z := map chg s.

(* generic association-list lookup used by generated tables *)
Fixpoint assoc {B} (k : string) (l : list (string * B)) : option B :=
  match l with
  | [] => None
  | (k', v) :: l' => if String.eqb k k' then Some v else assoc k l'
  end.

Definition str1 (c : ascii) : string := String c EmptyString.
Definition aa_str (a : aa) : string := str1 (aa_char a).

(* indices of failing cases: used by every Cases/*.v file *)
Fixpoint failing_from {X} (chk : X -> bool) (i : nat) (l : list X) : list nat :=
  match l with
  | [] => []
  | x :: l' => if chk x then failing_from chk (S i) l' else i :: failing_from chk (S i) l'
  end.
Definition failing {X} (chk : X -> bool) (l : list X) : list nat := failing_from chk 0 l.

Fixpoint assoc_z {B} (k : Z) (l : list (Z * B)) : option B :=
  match l with
  | [] => None
  | (k', v) :: l' => if Z.eqb k k' then Some v else assoc_z k l'
  end.
