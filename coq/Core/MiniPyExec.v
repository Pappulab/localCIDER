(* Core/MiniPyExec.v — rules for running Core.MiniPy terms one step at a time: the value of an expression from the
   values of its operands, one statement over an abstract environment, loops and comprehensions as functions of
   their element lists, the pieces of a term by position, how to compute in a closed environment, and the tactics for the
   value of a variable. *)
From Coq Require Import List String QArith Lia.
From LC Require Import Core.Lists Core.MiniPy Core.MiniPyData.
Import ListNotations.
Local Open Scope Z_scope.

Lemma bad2_good a b : is_bad a = false -> is_bad b = false -> bad2 a b = None.
Proof. intros Ha Hb. destruct a; try discriminate Ha; destruct b; try discriminate Hb; reflexivity. Qed.

Definition same_except (xs : list string) (r r' : env) : Prop :=
  forall x, existsb (String.eqb x) xs = false -> lookup x r' = lookup x r.

Lemma same_except_refl xs r : same_except xs r r.
Proof. intros x _. reflexivity. Qed.
Lemma same_except_trans xs r1 r2 r3 : same_except xs r1 r2 -> same_except xs r2 r3 -> same_except xs r1 r3.
Proof. intros H1 H2 x Hx. now rewrite (H2 x Hx), (H1 x Hx). Qed.
Lemma same_except_set xs y v r : In y xs -> same_except xs r (set y v r).
Proof.
  intros Hy x Hx. apply lookup_set_neq. destruct (String.eqb x y) eqn:E; [|reflexivity].
  apply String.eqb_eq in E. subst y. rewrite <- Hx. symmetry. apply existsb_exists. exists x. split; [exact Hy | apply String.eqb_refl].
Qed.
Lemma same_except_step xs y v r r' : In y xs -> same_except xs r r' -> same_except xs r (set y v r').
Proof. intros Hy H. apply (same_except_trans xs r r'); [exact H | apply same_except_set; exact Hy]. Qed.

(* the environment after the assignments of l, the latest first: a lookup in it is a lookup in l, then in r *)
Fixpoint sets (l r : env) : env :=
  match l with [] => r | (x, v) :: l' => set x v (sets l' r) end.
Lemma lookup_sets x l r : lookup x (sets l r) = lookup x (l ++ r).
Proof.
  induction l as [|[y v] l IH]; [reflexivity|]. cbn [sets app lookup]. destruct (String.eqb x y) eqn:E.
  - apply String.eqb_eq in E. subst y. apply lookup_set_eq.
  - rewrite lookup_set_neq by exact E. exact IH.
Qed.

(* the variables listed in bs hold their listed values in r (on a literal list, a conjunction of lookups) *)
Fixpoint binds (bs : list (string * value)) (r : env) : Prop :=
  match bs with [] => True | (x, v) :: bs' => lookup x r = v /\ binds bs' r end.
Definition avoids (xs : list string) (bs : list (string * value)) : bool :=
  forallb (fun xv => negb (existsb (String.eqb (fst xv)) xs)) bs.

Lemma binds_off xs bs r r' : same_except xs r r' -> avoids xs bs = true -> binds bs r -> binds bs r'.
Proof.
  intros Hfr. induction bs as [|[x v] bs IH]; intros Hx H; [exact I|].
  apply andb_prop in Hx. destruct Hx as [Hx Hbs]. destruct H as [H1 H2]. split; [|exact (IH Hbs H2)].
  rewrite (Hfr x) by (apply Bool.negb_true_iff; exact Hx). exact H1.
Qed.
Lemma binds_set xs bs y : In y xs -> avoids xs bs = true -> forall r w, binds bs r -> binds bs (set y w r).
Proof. intros Hy Hx r w. exact (binds_off xs bs r _ (same_except_set xs y w r Hy) Hx). Qed.

Lemma same_except_sets xs l r r' : forallb (fun xv => existsb (String.eqb (fst xv)) xs) l = true -> same_except xs r r' ->
  same_except xs r (sets l r').
Proof.
  intros Hl H. induction l as [|[x v] l IH]; [exact H|]. apply andb_prop in Hl. destruct Hl as [Hx Hl].
  cbn [sets]. apply same_except_step; [|exact (IH Hl)]. apply existsb_exists in Hx. destruct Hx as [y [Hy E]].
  apply String.eqb_eq in E. cbn [fst] in E. subst y. exact Hy.
Qed.

Section Posf.
Context {A : Type}.
Fixpoint posf (f : A -> bool) (k : nat) (l : list A) : list nat :=
  match l with [] => [] | a :: l' => if f a then k :: posf f (S k) l' else posf f (S k) l' end.
End Posf.

Lemma posf_length {A} (f : A -> bool) l : forall k, List.length (posf f k l) = List.length (filter f l).
Proof. induction l as [|a l IH]; intros k; [reflexivity|]. cbn [posf filter]. destruct (f a); cbn [List.length]; now rewrite IH. Qed.
Lemma posf_cnt {A} (f : A -> bool) l : forall k, Z.of_nat (List.length (posf f k l)) = cnt f l.
Proof. induction l as [|a l IH]; intros k; [reflexivity|]. cbn [posf cnt]. destruct (f a); cbn [List.length]; rewrite <- (IH (S k)); lia. Qed.

(* they are the places of seq k (length l) whose entry satisfies f, so no position comes twice *)
Lemma posf_filter {A} (d : A) (f : A -> bool) l : forall k, posf f k l = filter (fun i => f (nth (i - k) l d)) (seq k (List.length l)).
Proof.
  induction l as [|a l IH]; intros k; [reflexivity|]. cbn [posf List.length seq filter]. rewrite Nat.sub_diag. cbn [nth].
  rewrite IH, (filter_ext_in _ (fun i => f (nth (i - k) (a :: l) d))); [reflexivity|].
  intros i Hi. apply in_seq in Hi. replace (i - k)%nat with (S (i - S k)) by lia. reflexivity.
Qed.
Lemma posf_NoDup {A} (f : A -> bool) l k : NoDup (posf f k l).
Proof. destruct l as [|d l]; [constructor|]. rewrite (posf_filter d). apply NoDup_filter, seq_NoDup. Qed.

Section Exec.
Context {prim : string -> list value -> value} {wfuel : nat}.
Local Notation eval := (MiniPy.eval prim).
Local Notation exec := (MiniPy.exec prim wfuel).
Local Notation exec_list := (MiniPy.exec_list prim wfuel).
Local Notation run_loop := (MiniPy.run_loop prim wfuel).
Local Notation run_while := (MiniPy.run_while prim wfuel).
Local Notation comp_list := (MiniPy.comp_list prim).
Local Notation enum_list := (MiniPy.enum_list prim).

Lemma eval_len_list a r l : eval a r = VList l -> eval (ELen a) r = VInt (Z.of_nat (List.length l)).
Proof. intros H. cbn [MiniPy.eval]. now rewrite H. Qed.
Lemma eval_len_str a r s : eval a r = VStr s -> eval (ELen a) r = VInt (Z.of_nat (List.length s)).
Proof. intros H. cbn [MiniPy.eval]. now rewrite H. Qed.

Lemma eval_in a b r : eval (EIn a b) r = v_in (eval a r) (eval b r).
Proof. reflexivity. Qed.
Lemma eval_notin a b r : eval (ENotIn a b) r = v_not (v_in (eval a r) (eval b r)).
Proof. reflexivity. Qed.
Lemma eval_notin_list a b r x l : eval a r = x -> eval b r = VList l -> is_bad x = false ->
  eval (ENotIn a b) r = VBool (negb (existsb (veqb x) l)).
Proof. intros <- Hb Hx. cbn [MiniPy.eval]. rewrite Hb. destruct (eval a r); try discriminate Hx; reflexivity. Qed.

Lemma eval_eq_val a b r x y : eval a r = x -> eval b r = y -> is_bad x = false -> is_bad y = false -> eval (EEq a b) r = VBool (veqb x y).
Proof. intros <- <- Hx Hy. cbn [MiniPy.eval]. now rewrite (bad2_good _ _ Hx Hy). Qed.
Lemma eval_ne_val a b r x y : eval a r = x -> eval b r = y -> is_bad x = false -> is_bad y = false -> eval (ENe a b) r = VBool (negb (veqb x y)).
Proof. intros <- <- Hx Hy. cbn [MiniPy.eval]. now rewrite (bad2_good _ _ Hx Hy). Qed.
Lemma eval_eq_str a b r s t : eval a r = VStr s -> eval b r = VStr t -> eval (EEq a b) r = VBool (ascii_list_eqb s t).
Proof. intros Ha Hb. cbn [MiniPy.eval]. rewrite Ha, Hb. reflexivity. Qed.
Lemma eval_ne_int a b r x y : eval a r = VInt x -> eval b r = VInt y -> eval (ENe a b) r = VBool (negb (x =? y)).
Proof. intros Ha Hb. cbn [MiniPy.eval]. rewrite Ha, Hb. reflexivity. Qed.
Lemma eval_lt_int a b r x y : eval a r = VInt x -> eval b r = VInt y -> eval (ELt a b) r = VBool (x <? y).
Proof. intros Ha Hb. cbn [MiniPy.eval]. rewrite Ha, Hb. reflexivity. Qed.
Lemma eval_gt_int a b r x y : eval a r = VInt x -> eval b r = VInt y -> eval (EGt a b) r = VBool (x >? y).
Proof. intros Ha Hb. cbn [MiniPy.eval]. rewrite Ha, Hb. reflexivity. Qed.
Lemma eval_le_int a b r x y : eval a r = VInt x -> eval b r = VInt y -> eval (ELe a b) r = VBool (x <=? y).
Proof. intros Ha Hb. cbn [MiniPy.eval]. rewrite Ha, Hb. reflexivity. Qed.
Lemma eval_ge_int a b r x y : eval a r = VInt x -> eval b r = VInt y -> eval (EGe a b) r = VBool (x >=? y).
Proof. intros Ha Hb. cbn [MiniPy.eval]. rewrite Ha, Hb. reflexivity. Qed.
Lemma eval_gt_Q a b r p q : eval a r = VQ p -> eval b r = VQ q -> eval (EGt a b) r = VBool (Qltb q p).
Proof. intros Ha Hb. cbn [MiniPy.eval]. rewrite Ha, Hb. reflexivity. Qed.
Lemma eval_ge_Q a b r p q : eval a r = VQ p -> eval b r = VQ q -> eval (EGe a b) r = VBool (Qle_bool q p).
Proof. intros Ha Hb. cbn [MiniPy.eval]. rewrite Ha, Hb. reflexivity. Qed.

Lemma eval_gt_int_Q a b r z q : eval a r = VInt z -> eval b r = VQ q -> eval (EGt a b) r = VBool (Qltb q (inject_Z z)).
Proof. intros Ha Hb. cbn [MiniPy.eval]. rewrite Ha, Hb. reflexivity. Qed.

Lemma eval_not a r b : eval a r = VBool b -> eval (ENot a) r = VBool (negb b).
Proof. intros H. cbn [MiniPy.eval]. now rewrite H. Qed.
Lemma eval_and_bool a b r x y : eval a r = VBool x -> eval b r = VBool y -> eval (EAnd a b) r = VBool (x && y).
Proof. intros Ha Hb. cbn [MiniPy.eval]. rewrite Ha, Hb. destruct x; reflexivity. Qed.
Lemma eval_or_bool a b r x y : eval a r = VBool x -> eval b r = VBool y -> eval (EOr a b) r = VBool (x || y).
Proof. intros Ha Hb. cbn [MiniPy.eval]. rewrite Ha, Hb. destruct x; reflexivity. Qed.

Lemma eval_add_num_Q a b r v p q : eval a r = v -> numv v p -> eval b r = VQ q -> eval (EAdd a b) r = VQ (Qred (p + q)).
Proof. intros Ha Hv Hb. destruct Hv; [apply eval_add_Q_int_l | apply eval_add_Q]; assumption. Qed.
Lemma eval_sub_num_Q a b r v p q : eval a r = v -> numv v p -> eval b r = VQ q -> eval (ESub a b) r = VQ (Qred (p - q)).
Proof. intros Ha Hv Hb. cbn [MiniPy.eval]. rewrite Ha, Hb. destruct Hv; reflexivity. Qed.
Lemma eval_add_num a b r v p w q : eval a r = v -> eval b r = w -> numv v p -> numv w q ->
  exists u t, eval (EAdd a b) r = u /\ numv u t /\ (t == p + q)%Q.
Proof.
  intros Ha Hb Hv Hw. destruct Hv as [x|x], Hw as [y|y].
  - exists (VInt (x + y)), (inject_Z (x + y)). split; [apply eval_add_int; assumption|]. split; [constructor | now rewrite inject_Z_plus].
  - eexists _, _. split; [apply (eval_add_Q_int_l _ _ _ _ _ Ha Hb)|]. split; [constructor | apply Qred_correct].
  - eexists _, _. split; [apply (eval_add_Q_int _ _ _ _ _ Ha Hb)|]. split; [constructor | apply Qred_correct].
  - eexists _, _. split; [apply (eval_add_Q _ _ _ _ _ Ha Hb)|]. split; [constructor | apply Qred_correct].
Qed.
Lemma eval_sub_num a b r v p w q : eval a r = v -> eval b r = w -> numv v p -> numv w q ->
  exists u t, eval (ESub a b) r = u /\ numv u t /\ (t == p - q)%Q.
Proof.
  intros Ha Hb Hv Hw. destruct Hv as [x|x], Hw as [y|y].
  - exists (VInt (x - y)), (inject_Z (x - y)). split; [apply eval_sub_int; assumption|]. split; [constructor|].
    unfold Z.sub. now rewrite inject_Z_plus, inject_Z_opp.
  - eexists _, _. split; [apply (eval_sub_num_Q a b r _ _ y Ha (NI x) Hb)|]. split; [constructor | apply Qred_correct].
  - eexists _, _. split; [cbn [MiniPy.eval]; rewrite Ha, Hb; reflexivity|]. split; [constructor | apply Qred_correct].
  - eexists _, _. split; [apply (eval_sub_Q _ _ _ _ _ Ha Hb)|]. split; [constructor | apply Qred_correct].
Qed.
Lemma eval_mul_Q_int a b r q z : eval a r = VQ q -> eval b r = VInt z -> eval (EMul a b) r = VQ (Qred (q * inject_Z z)).
Proof. intros Ha Hb. cbn [MiniPy.eval]. rewrite Ha, Hb. reflexivity. Qed.
Lemma eval_div_Q a b r x p q : eval a r = x -> as_Q x = Some p -> eval b r = VQ q -> Qeq_bool q 0 = false ->
  eval (EDiv a b) r = VQ (Qred (p / q)).
Proof.
  intros <- Hp Hb Hq. cbn [MiniPy.eval]. rewrite Hb.
  destruct (eval a r); try discriminate Hp; cbn [bad2 as_Q] in *; injection Hp as <-; now rewrite Hq.
Qed.
Lemma eval_mod_int a b r x y : eval a r = VInt x -> eval b r = VInt y -> y <> 0 -> eval (EMod a b) r = VInt (x mod y).
Proof. intros Ha Hb Hy. cbn [MiniPy.eval]. rewrite Ha, Hb. cbn [bad2]. destruct (Z.eqb_spec y 0); [contradiction | reflexivity]. Qed.
Lemma eval_index_str a i r s k c : eval a r = VStr s -> eval i r = VInt k -> index_val s k = Some c -> eval (EIndex a i) r = VStr [c].
Proof. intros Ha Hi Hc. cbn [MiniPy.eval]. rewrite Ha, Hi. cbn [bad2]. now rewrite Hc. Qed.
Lemma eval_index_key a i r d k : eval a r = VDict d -> eval i r = k -> is_bad k = false ->
  eval (EIndex a i) r = match dict_get k d with Some v => v | None => VExc end.
Proof. intros Ha Hi Hk. cbn [MiniPy.eval]. rewrite Ha, Hi. destruct k; try discriminate Hk; reflexivity. Qed.
Lemma eval_add_str a b r p q : eval a r = VStr p -> eval b r = VStr q -> eval (EAdd a b) r = VStr (p ++ q).
Proof. intros Ha Hb. cbn [MiniPy.eval]. rewrite Ha, Hb. reflexivity. Qed.
Lemma eval_count_char a b r s c : eval a r = VStr s -> eval b r = VStr [c] -> eval (ECount a b) r = VInt (count_substr1 c s).
Proof. intros Ha Hb. cbn [MiniPy.eval]. rewrite Ha, Hb. reflexivity. Qed.
Lemma eval_upper_str a r s : eval a r = VStr s -> eval (EUpper a) r = VStr (map upper_py s).
Proof. intros H. cbn [MiniPy.eval]. now rewrite H. Qed.
Lemma eval_lower_str a r s : eval a r = VStr s -> eval (ELower a) r = VStr (map lower_py s).
Proof. intros H. cbn [MiniPy.eval]. now rewrite H. Qed.
Lemma eval_listof_str a r s : eval a r = VStr s -> eval (EListOf a) r = VList (map (fun c => VStr [c]) s).
Proof. intros H. cbn [MiniPy.eval]. now rewrite H. Qed.
Lemma eval_join_list sep a r l t : eval a r = VList l -> join_strs sep l = Some t -> eval (EJoin sep a) r = VStr t.
Proof. intros Ha Ht. cbn [MiniPy.eval]. rewrite Ha. cbv iota. now rewrite Ht. Qed.
Lemma eval_join_chars a r s : eval a r = VStr s -> eval (EJoin [] a) r = VStr s.
Proof. intros H. cbn [MiniPy.eval]. rewrite H. cbv iota. now rewrite join_chars. Qed.

(* a[1:] on a list that has a first element (the bounds left abstract: computing with literal bounds unfolds every error
   branch of the slice) *)
Lemma eval_slice_from1 a lo hi r x l : eval a r = VList (x :: l) -> eval lo r = VInt 1 -> eval hi r = VNone ->
  eval (ESlice a lo hi) r = VList l.
Proof.
  intros Ha Hl Hh. cbn [MiniPy.eval]. rewrite Ha, Hl, Hh. cbn [List.length]. rewrite slice_bounds_from1. cbn [skipn Nat.sub].
  now rewrite Nat.sub_0_r, firstn_all.
Qed.

Lemma eval_setof a r l : eval a r = VList l -> eval (ESetOf a) r = VList (vdedup [] l).
Proof. intros H. cbn [MiniPy.eval]. now rewrite H. Qed.
Lemma eval_setdiff a b r p q : eval a r = VList p -> eval b r = VList q ->
  eval (ESetDiff a b) r = VList (filter (fun v => negb (existsb (veqb v) q)) p).
Proof. intros Ha Hb. cbn [MiniPy.eval]. rewrite Ha, Hb. reflexivity. Qed.

Lemma eval_range_nat a b r lo hi : eval a r = VN lo -> eval b r = VN hi -> eval (ERange a b) r = VList (ints (seq lo (hi - lo))).
Proof.
  intros Ha Hb. rewrite (eval_range a b r _ _ Ha Hb). replace (Z.to_nat (Z.of_nat hi - Z.of_nat lo)) with (hi - lo)%nat by lia. f_equal.
  rewrite <- (Nat.add_0_r lo) at 2. generalize 0%nat. induction (hi - lo)%nat as [|n IH]; intros s; [reflexivity|].
  cbn [seq map]. rewrite IH, Nat.add_succ_r, Nat2Z.inj_add. reflexivity.
Qed.
Lemma eval_range0 a b r n : eval a r = VInt 0 -> eval b r = VN n -> eval (ERange a b) r = VList (ints (seq 0 n)).
Proof. intros Ha Hb. rewrite (eval_range_nat a b r 0 n Ha Hb), Nat.sub_0_r. reflexivity. Qed.
Lemma eval_mul_rep1 a b r v n : eval a r = VList [v] -> eval b r = VInt (Z.of_nat n) -> eval (EMul a b) r = VList (repeat v n).
Proof.
  intros Ha Hb. rewrite (eval_mul_rep a b r [v] (Z.of_nat n) Ha Hb), Nat2Z.id. f_equal. apply concat_repeat_single.
Qed.

Lemma eval_call_all f r es : forall vs, Forall2 (fun e v => eval e r = v /\ is_bad v = false) es vs -> eval (ECall f es) r = prim f vs.
Proof.
  intros vs H.
  assert (G : (fix go (l : list expr) : list value := match l with [] => [] | a :: l' => eval a r :: go l' end) es = vs
              /\ existsb (fun v => match v with VErr => true | _ => false end) vs = false
              /\ existsb (fun v => match v with VExc => true | _ => false end) vs = false).
  { induction H as [|e v es vs [He Hv] _ IH]; [repeat split|]. destruct IH as [I1 [I2 I3]]. rewrite I1, He. cbn [existsb]. rewrite I2, I3.
    repeat split; destruct v; try reflexivity; discriminate Hv. }
  destruct G as [G1 [G2 G3]]. cbn [MiniPy.eval]. rewrite G1, G2, G3. reflexivity.
Qed.
Lemma eval_vars_all r (xs : list (string * value)) : Forall (fun xv => lookup (fst xv) r = snd xv /\ is_bad (snd xv) = false) xs ->
  Forall2 (fun e v => eval e r = v /\ is_bad v = false) (map (fun xv => EVar (fst xv)) xs) (map snd xs).
Proof. induction 1 as [|[x v] xs [Hl Hb] _ IH]; cbn [map fst snd] in *; constructor; [split; assumption | exact IH]. Qed.

(* float(a) / b, for any table that interprets "qdiv" by qdiv_prim *)
Lemma eval_qdiv a b r va vb x y : (forall args, prim "qdiv"%string args = qdiv_prim args) ->
  eval a r = va -> eval b r = vb -> numv va x -> numv vb y -> Qeq_bool y 0 = false ->
  eval (ECall "qdiv" [a; b]) r = VQ (Qred (x / y)).
Proof.
  intros Hp Ea Eb Na Nb Hy. rewrite (eval_call2 _ _ _ _ va vb Ea Eb (numv_ok _ _ Na) (numv_ok _ _ Nb)), Hp.
  now rewrite (qdiv_prim_numv _ _ _ _ Na Nb), Hy.
Qed.

(* One statement over an abstract environment: alone (exec_..), at the head of a sequence (step_..), at the head of a
   list of statements still to run (step_.._list) *)
Lemma exec_assign x e r : exec (SAssign x e) r = match eval e r with VErr => OErr | VExc => ORaise | v => ONorm (set x v r) end.
Proof. cbn [MiniPy.exec]. destruct (eval e r); reflexivity. Qed.
Lemma step_assign x e b r v : eval e r = v -> is_bad v = false -> exec (SSeq (SAssign x e) b) r = exec b (set x v r).
Proof. intros H H0. rewrite exec_seq, (exec_assign_ok x e r v H H0). reflexivity. Qed.
Lemma step_assign_list x e l r v : eval e r = v -> is_bad v = false -> exec_list (SAssign x e :: l) r = exec_list l (set x v r).
Proof. intros H H0. rewrite exec_list_cons, (exec_assign_ok x e r v H H0). reflexivity. Qed.
Lemma step_const x v b r : is_bad v = false -> exec (SSeq (SAssign x (EConst v)) b) r = exec b (set x v r).
Proof. intros H. apply step_assign; [reflexivity | exact H]. Qed.
Lemma step_const_list x v l r : is_bad v = false -> exec_list (SAssign x (EConst v) :: l) r = exec_list l (set x v r).
Proof. intros H. apply step_assign_list; [reflexivity | exact H]. Qed.
Lemma step_norm a b r r' : exec a r = ONorm r' -> exec (SSeq a b) r = exec b r'.
Proof. intros H. rewrite exec_seq, H. reflexivity. Qed.
Lemma assign_exc x e b r : eval e r = VExc -> exec (SSeq (SAssign x e) b) r = ORaise.
Proof. intros H. rewrite exec_seq, exec_assign, H. reflexivity. Qed.
Lemma step_append x e b r l v : lookup x r = VList l -> eval e r = v -> is_bad v = false ->
  exec (SSeq (SAppend x e) b) r = exec b (set x (VList (l ++ [v])) r).
Proof. intros Hx He Hv. rewrite exec_seq, (exec_append_ok _ _ _ _ _ Hx He Hv). reflexivity. Qed.
Lemma step_skip b r : exec (SSeq SSkip b) r = exec b r.
Proof. reflexivity. Qed.
Lemma exec_seq_assoc a b c r : exec (SSeq (SSeq a b) c) r = exec (SSeq a (SSeq b c)) r.
Proof. rewrite !exec_seq. destruct (exec a r); reflexivity. Qed.

Lemma exec_if_truthy c a b r v : truthy (eval c r) = VBool v -> exec (SIf c a b) r = if v then exec a r else exec b r.
Proof. intros H. rewrite exec_if, H. destruct v; reflexivity. Qed.
Lemma exec_if_bool c a b r v : eval c r = VBool v -> exec (SIf c a b) r = if v then exec a r else exec b r.
Proof. intros H. apply exec_if_truthy. now rewrite H. Qed.
Lemma exec_if_skip c r b : truthy (eval c r) = VBool b -> exec (SIf c SSkip SSkip) r = ONorm r.
Proof. intros H. rewrite (exec_if_truthy _ _ _ _ _ H). destruct b; reflexivity. Qed.
Lemma step_if c a b k r t : truthy (eval c r) = VBool t -> exec (SSeq (SIf c a b) k) r = exec (SSeq (if t then a else b) k) r.
Proof. intros H. rewrite !exec_seq, (exec_if_truthy _ _ _ _ _ H). destruct t; reflexivity. Qed.
(* if a not in b: raise *)
Lemma exec_raise_unless_in a b r t : v_in (eval a r) (eval b r) = VBool t ->
  exec (SIf (ENotIn a b) SRaise SSkip) r = if t then ONorm r else ORaise.
Proof. intros H. rewrite exec_if, eval_notin, H. destruct t; reflexivity. Qed.
Lemma step_raise_unless_in a b k r t : v_in (eval a r) (eval b r) = VBool t ->
  exec (SSeq (SIf (ENotIn a b) SRaise SSkip) k) r = if t then exec k r else ORaise.
Proof. intros H. rewrite exec_seq, (exec_raise_unless_in _ _ _ _ H). destruct t; reflexivity. Qed.

Lemma step_norm_list a l r r' : exec a r = ONorm r' -> exec_list (a :: l) r = exec_list l r'.
Proof. intros H. rewrite exec_list_cons, H. reflexivity. Qed.
Lemma step_append_list x e st r l v : lookup x r = VList l -> eval e r = v -> is_bad v = false ->
  exec_list (SAppend x e :: st) r = exec_list st (set x (VList (l ++ [v])) r).
Proof. intros Hx He Hv. apply step_norm_list, (exec_append_ok _ _ _ _ _ Hx He Hv). Qed.
Lemma step_if_list c a b l r t : truthy (eval c r) = VBool t -> exec_list (SIf c a b :: l) r = exec_list ((if t then a else b) :: l) r.
Proof. intros H. rewrite !exec_list_cons, (exec_if_truthy _ _ _ _ _ H). destruct t; reflexivity. Qed.
Lemma step_seq_list a b l r : exec_list (SSeq a b :: l) r = exec_list (a :: b :: l) r.
Proof. rewrite !exec_list_cons, exec_seq. destruct (exec a r); reflexivity. Qed.
Lemma step_skip_list l r : exec_list (SSkip :: l) r = exec_list l r.
Proof. reflexivity. Qed.
Lemma step_return_list e l r v : eval e r = v -> is_bad v = false -> exec_list (SReturn e :: l) r = ORet v.
Proof. intros H H0. rewrite exec_list_cons, (exec_return_ok _ _ _ H H0). reflexivity. Qed.
Lemma exec_list_spine s st r : exec_list (s :: st) r = exec_list (spine s ++ st) r.
Proof. rewrite exec_list_app, <- exec_spine. apply exec_list_cons. Qed.
Lemma exec_list_split k l r : exec_list l r = match exec_list (firstn k l) r with ONorm r' => exec_list (skipn k l) r' | other => other end.
Proof. rewrite <- (firstn_skipn k l) at 1. apply exec_list_app. Qed.

Lemma var_sets x l r : eval (EVar x) (sets l r) = lookup x (l ++ r).
Proof. exact (lookup_sets x l r). Qed.
Lemma assign_sets x e st l r v : eval e (sets l r) = v -> is_bad v = false ->
  exec_list (SAssign x e :: st) (sets l r) = exec_list st (sets ((x, v) :: l) r).
Proof. exact (step_assign_list x e st (sets l r) v). Qed.

Lemma run_appends x : forall (es : list expr) (vs l : list value) r, lookup x r = VList l ->
  Forall2 (fun e v => (forall r', eval e r' = v) /\ is_bad v = false) es vs ->
  exists r', exec_list (map (SAppend x) es) r = ONorm r' /\ lookup x r' = VList (l ++ vs) /\
    forall y, String.eqb y x = false -> lookup y r' = lookup y r.
Proof.
  induction es as [|e es IH]; intros vs l r Hl H; inversion H as [|? v ? vs' [He Hv] H']; subst.
  - exists r. rewrite app_nil_r. auto.
  - cbn [map]. rewrite (step_append_list _ _ _ _ l v Hl (He r) Hv).
    destruct (IH vs' (l ++ [v]) (set x (VList (l ++ [v])) r) (lookup_set_eq _ _ _) H') as [r' [E [H1 H2]]].
    exists r'. split; [exact E|]. split; [now rewrite H1, <- app_assoc|].
    intros y Hy. rewrite H2 by exact Hy. now apply lookup_set_neq.
Qed.

Lemma exec_for_elems x e body r xs : elements (eval e r) = Some xs -> exec (SFor x e body) r = run_loop x body xs r.
Proof. intros H. rewrite exec_for. destruct (eval e r); try discriminate H; rewrite H; reflexivity. Qed.
Lemma exec_for_list x e body r l : eval e r = VList l -> exec (SFor x e body) r = run_loop x body l r.
Proof. intros H. apply exec_for_elems. now rewrite H. Qed.
Lemma exec_for_str x e body r s : eval e r = VStr s -> exec (SFor x e body) r = run_loop x body (chars_val s) r.
Proof. intros H. apply exec_for_elems. now rewrite H. Qed.
Lemma exec_for_range_nat x a b body r lo hi : eval a r = VN lo -> eval b r = VN hi ->
  exec (SFor x (ERange a b) body) r = run_loop x body (ints (seq lo (hi - lo))) r.
Proof. intros Ha Hb. apply exec_for_list, eval_range_nat; assumption. Qed.
Lemma exec_for_range0 x a b body r n : eval a r = VInt 0 -> eval b r = VN n ->
  exec (SFor x (ERange a b) body) r = run_loop x body (ints (seq 0 n)) r.
Proof. intros Ha Hb. apply exec_for_list, eval_range0; assumption. Qed.

(* a function whose spine is  prelude; for x in e: body; rest *)
Lemma exec_split_for s pre x e body rest r r1 xs : split_at_for s = Some (pre, (x, e, body), rest) ->
  exec_list pre r = ONorm r1 -> elements (eval e r1) = Some xs ->
  exec s r = match run_loop x body xs r1 with ONorm r2 => exec rest r2 | other => other end.
Proof. intros Hs Hp He. rewrite (exec_split _ _ _ _ _ _ _ Hs), Hp, (exec_for_elems _ _ _ _ _ He). reflexivity. Qed.

Lemma run_loop_cons x body v vs r : run_loop x body (v :: vs) r =
  match exec body (set x v r) with ONorm r' | OCont r' => run_loop x body vs r' | OBreak r' => ONorm r' | other => other end.
Proof. reflexivity. Qed.

Lemma run_while_true c body k r r' : truthy (eval c r) = VBool true -> exec body r = ONorm r' ->
  run_while c body (S k) r = run_while c body k r'.
Proof. intros Hc Hb. cbn [MiniPy.run_while]. now rewrite Hc, Hb. Qed.
Lemma run_while_false c body k r : truthy (eval c r) = VBool false -> run_while c body (S k) r = ONorm r.
Proof. intros Hc. cbn [MiniPy.run_while]. now rewrite Hc. Qed.

(* A for-loop that never breaks or raises is a fold over its elements: if the body takes the state b, on the element made
   from a, to step b (g a), keeping P between state and environment, the loop takes b to the fold over the list. *)
Lemma run_loop_fold {A B C} x body (val : A -> value) (g : A -> C) (step : B -> C -> B) (P : B -> env -> Prop) l b r :
  (forall a b r, In a l -> P b r ->
     exists r', (exec body (set x (val a) r) = ONorm r' \/ exec body (set x (val a) r) = OCont r') /\ P (step b (g a)) r') ->
  P b r -> exists r', run_loop x body (map val l) r = ONorm r' /\ P (fold_left step (map g l) b) r'.
Proof.
  revert b r. induction l as [|a l IH]; intros b r Hbody H; cbn [map fold_left].
  - exists r. split; [reflexivity | exact H].
  - rewrite run_loop_cons. destruct (Hbody a b r (or_introl eq_refl) H) as [r1 [[E1|E1] H1]]; rewrite E1;
      (apply IH; [|exact H1]); intros a' b' r' Ha'; apply Hbody; right; exact Ha'.
Qed.

(* a loop whose body appends one item to the list the environment carries; the environment also shows the loop variable *)
Lemma append_loop {A B} x body (emb : A -> value) (f : A -> B) (env : list B -> value -> MiniPy.env) :
  (forall acc last a, exec body (set x (emb a) (env acc last)) = ONorm (env (acc ++ [f a]) (emb a))) ->
  forall t acc last, exists last', run_loop x body (map emb t) (env acc last) = ONorm (env (acc ++ map f t) last').
Proof.
  intros Hstep. induction t as [|a t IH]; intros acc last; cbn [map].
  - exists last. now rewrite app_nil_r.
  - rewrite run_loop_cons, Hstep. destruct (IH (acc ++ [f a]) (emb a)) as [last' E]. exists last'. rewrite E, <- app_assoc. reflexivity.
Qed.

Lemma comp_list_map {A} x body (emb h : A -> value) r :
  (forall a, eval body (set x (emb a) r) = h a) -> (forall a, is_bad (h a) = false) ->
  forall l, comp_list x body (map emb l) r = VList (map h l).
Proof. intros Hb Hg. induction l as [|a l IH]; [reflexivity|]. cbn [map MiniPy.comp_list]. now rewrite IH, Hb, Hg. Qed.
Lemma eval_comp_map {A} x body src (emb h : A -> value) l r v : eval src r = v -> elements v = Some (map emb l) ->
  (forall a, eval body (set x (emb a) r) = h a) -> (forall a, is_bad (h a) = false) ->
  eval (EComp x body src) r = VList (map h l).
Proof.
  intros <- Hs Hb Hg. rewrite eval_comp. destruct (eval src r); try discriminate Hs; rewrite Hs; apply comp_list_map; assumption.
Qed.

(* [ix for ix, x in enumerate(..) if cond], the index counted from k0 + k *)
Lemma enum_list_positions_from {A} ix x cond (emb : A -> value) (f : A -> bool) r k0 : String.eqb ix x = false ->
  (forall a k, truthy (eval cond (set x (emb a) (set ix (VInt k) r))) = VBool (f a)) ->
  forall l k, enum_list ix x cond (EVar ix) (k0 + Z.of_nat k) (map emb l) r = VList (map (fun i => VInt (k0 + Z.of_nat i)) (posf f k l)).
Proof.
  intros Hix Hc. induction l as [|a l IH]; intros k; [reflexivity|]. cbn [map MiniPy.enum_list posf]. rewrite Hc.
  replace (k0 + Z.of_nat k + 1) with (k0 + Z.of_nat (S k)) by lia. rewrite IH. destruct (f a); [|reflexivity].
  cbn [MiniPy.eval]. rewrite lookup_set_neq by exact Hix. rewrite lookup_set_eq. reflexivity.
Qed.
Lemma enum_list_positions {A} ix x cond (emb : A -> value) (f : A -> bool) r : String.eqb ix x = false ->
  (forall a k, truthy (eval cond (set x (emb a) (set ix (VInt k) r))) = VBool (f a)) ->
  forall l k, enum_list ix x cond (EVar ix) (Z.of_nat k) (map emb l) r = VList (map (fun i => VInt (Z.of_nat i)) (posf f k l)).
Proof. intros Hix Hc l k. exact (enum_list_positions_from ix x cond emb f r 0 Hix Hc l k). Qed.
Lemma enum_list_length {A} ix x cond (emb : A -> value) (f : A -> bool) r : String.eqb ix x = false ->
  (forall a k, truthy (eval cond (set x (emb a) (set ix (VInt k) r))) = VBool (f a)) ->
  forall l k, exists t, enum_list ix x cond (EVar ix) k (map emb l) r = VList t /\ List.length t = List.length (filter f l).
Proof.
  intros Hix Hc l k. pose proof (enum_list_positions_from ix x cond emb f r k Hix Hc l 0%nat) as E.
  cbn [Z.of_nat] in E. rewrite Z.add_0_r in E. eexists. split; [exact E|]. now rewrite map_length, posf_length.
Qed.
Lemma eval_len_enumfilter {A} ix x cond src (emb : A -> value) (f : A -> bool) l r v : String.eqb ix x = false ->
  eval src r = v -> elements v = Some (map emb l) ->
  (forall a k, truthy (eval cond (set x (emb a) (set ix (VInt k) r))) = VBool (f a)) ->
  eval (ELen (EEnumFilter ix x cond (EVar ix) src)) r = VInt (Z.of_nat (List.length (filter f l))).
Proof.
  intros Hix <- Hs Hc. destruct (enum_list_length ix x cond emb f r Hix Hc l 0) as [t [E Ht]].
  rewrite (eval_len_list _ r t); [now rewrite Ht|].
  rewrite eval_enumfilter. destruct (eval src r); try discriminate Hs; rewrite Hs; exact E.
Qed.
Lemma eval_cnt_enumfilter {A} ix x cond src (emb : A -> value) (f : A -> bool) l r v : String.eqb ix x = false ->
  eval src r = v -> elements v = Some (map emb l) ->
  (forall a k, truthy (eval cond (set x (emb a) (set ix (VInt k) r))) = VBool (f a)) ->
  eval (ELen (EEnumFilter ix x cond (EVar ix) src)) r = VInt (cnt f l).
Proof.
  intros Hix Hv Hs Hc. rewrite (eval_len_enumfilter ix x cond src emb f l r v Hix Hv Hs Hc).
  now rewrite <- (posf_cnt f l 0%nat), posf_length.
Qed.

(* the tests x > 0, x < 0, x == 0 of such a count, x bound last *)
Lemma cond_gt0 x z r : truthy (eval (EGt (EVar x) (EConst (VInt 0))) (set x (VInt z) r)) = VBool (0 <? z).
Proof. rewrite (eval_gt_int _ _ _ z 0); [now rewrite Z.gtb_ltb | apply lookup_set_eq | reflexivity]. Qed.
Lemma cond_lt0 x z r : truthy (eval (ELt (EVar x) (EConst (VInt 0))) (set x (VInt z) r)) = VBool (z <? 0).
Proof. rewrite (eval_lt_int _ _ _ z 0); [reflexivity | apply lookup_set_eq | reflexivity]. Qed.
Lemma cond_eq0 x z r : truthy (eval (EEq (EVar x) (EConst (VInt 0))) (set x (VInt z) r)) = VBool (z =? 0).
Proof. rewrite (eval_eq_int _ _ _ z 0); [reflexivity | apply lookup_set_eq | reflexivity]. Qed.

(* len([i for i, x in enumerate(v) if x > 0]) and the like, v a variable holding integers *)
Lemma count_pos v b r : lookup v r = VList (map VInt b) ->
  eval (ELen (EEnumFilter "$i" "$x" (EGt (EVar "$x") (EConst (VInt 0))) (EVar "$i") (EVar v))) r = VInt (cnt (fun z => 0 <? z) b).
Proof.
  intros Hb. apply (eval_cnt_enumfilter _ _ _ _ VInt _ b r (VList (map VInt b))); [reflexivity | exact Hb | reflexivity |].
  intros z k. apply cond_gt0.
Qed.
Lemma count_neg v b r : lookup v r = VList (map VInt b) ->
  eval (ELen (EEnumFilter "$i" "$x" (ELt (EVar "$x") (EConst (VInt 0))) (EVar "$i") (EVar v))) r = VInt (cnt (fun z => z <? 0) b).
Proof.
  intros Hb. apply (eval_cnt_enumfilter _ _ _ _ VInt _ b r (VList (map VInt b))); [reflexivity | exact Hb | reflexivity |].
  intros z k. apply cond_lt0.
Qed.

(* [x for ix, x in enumerate(..) if cond] *)
Lemma enum_list_filter {A} ix x cond (emb : A -> value) (f : A -> bool) r : (forall a, is_bad (emb a) = false) ->
  (forall a k, truthy (eval cond (set x (emb a) (set ix (VInt k) r))) = VBool (f a)) ->
  forall l k, enum_list ix x cond (EVar x) k (map emb l) r = VList (map emb (filter f l)).
Proof.
  intros Hg Hc. induction l as [|a l IH]; intros k; [reflexivity|]. cbn [map MiniPy.enum_list filter]. rewrite Hc, IH.
  destruct (f a); [|reflexivity]. cbn [MiniPy.eval]. rewrite lookup_set_eq, Hg. reflexivity.
Qed.
Lemma eval_enumfilter_filter {A} ix x cond src (emb : A -> value) (f : A -> bool) l r v : eval src r = v -> elements v = Some (map emb l) ->
  (forall a, is_bad (emb a) = false) ->
  (forall a k, truthy (eval cond (set x (emb a) (set ix (VInt k) r))) = VBool (f a)) ->
  eval (EEnumFilter ix x cond (EVar x) src) r = VList (map emb (filter f l)).
Proof.
  intros <- Hs Hg Hc. rewrite eval_enumfilter. destruct (eval src r); try discriminate Hs; rewrite Hs; apply enum_list_filter; assumption.
Qed.
End Exec.

Definition for_body (s : stmt) : stmt := match s with SFor _ _ b => b | _ => SSkip end.
Definition while_cond (s : stmt) : expr := match s with SWhile c _ => c | _ => EConst VErr end.
Definition while_body (s : stmt) : stmt := match s with SWhile _ b => b | _ => SSkip end.
Definition if_else (s : stmt) : stmt := match s with SIf _ _ b => b | _ => SSkip end.
Definition stmt_at (k : nat) (g : stmt) : stmt := nth k (spine g) SSkip.

(* Running a term in a closed environment.  Where the statement is closed and the environment a literal list of bindings
   (its values may be variables), a tie file computes with `lazy beta iota zeta delta [..]` over a whitelist of its own:
   exec / eval / lookup / set, String.eqb / Ascii.eqb / Bool.eqb for the comparison of names, the value operations the
   code at hand calls, the file's environments.  So the String.eqb chains and the interpreter's fixpoints are the only
   things unfolded; oracles, model functions and abstract values stay folded.  This is safe as long as every fixpoint
   application met has a concrete recursive argument, and NOT when a test is stuck with statements still to run: in
   `match <stuck> with ONorm r' => exec b r' | ...` lazy goes on under the binder and leaves `(fix lookup ...) x r'` in
   the goal.  Hence the lists that leave exec_list folded: the statements are taken one at a time (exec_list_cons, the
   step_ rules), and a test that does not reduce is decided before the next one runs. *)

(* the value of a variable, through the assignments made since H held; and when a loop has run since that assigns
   other names only (F : same_except xs r r') *)
Tactic Notation "var" uconstr(H) := rewrite eval_var; lk; exact H.
Tactic Notation "var_off" constr(F) uconstr(H) := rewrite eval_var; lk; rewrite F by reflexivity; exact H.
